(* C05  Timers: never early, deadline order, exactly once per arming, cancel is final. *)
From CV Require Import Base Token PostAction Env Loop.
From Coq Require Import Permutation.
From CVP Require Import Seq_lemmas Env_lemmas C05_perm.
Import ListNotations.
Open Scope N_scope.

(* the expiry loop of Poll::poll: every popped entry is due (never early), the popped entries are entries of the wheel
   (nothing invented), nothing due is left behind, and everything left is later than everything popped *)
Theorem C05_expire : forall l now ex rest, wh_expire (length l) l now = (ex, rest) ->
  Forall (fun e => (w_dl e <= now)%Z) ex /\
  (forall e, In e ex -> In e l) /\ (forall e, In e rest -> In e l) /\
  (forall a b, In a ex -> In b rest -> (w_dl a <= w_dl b)%Z) /\
  Forall (fun e => (now < w_dl e)%Z) rest.
Proof.
  intros l now ex rest H. destruct (wh_expire_spec (length l) l now ex rest H) as (A & B & C & D & F).
  repeat split; try assumption. apply F. apply le_n.
Qed.
(* timers due in the same dispatch come out in non-decreasing deadline order *)
Theorem C05_deadline_order : forall fuel l now ex rest, wh_expire fuel l now = (ex, rest) -> dl_sorted ex.
Proof. exact wh_expire_sorted. Qed.
(* the expiry loop partitions the wheel: popped ++ remaining is a permutation of what was there - no arming is popped twice, none is
   lost, none is invented; with pairwise distinct arming counters (which holds except after the stale-batch-event corner F5) each
   counter is popped at most once and a popped counter is no longer in the wheel *)
Theorem C05_expire_partitions_wheel : forall fuel l now ex rest, wh_expire fuel l now = (ex, rest) -> Permutation l (ex ++ rest).
Proof. exact wh_expire_perm. Qed.
Theorem C05_each_arming_popped_once : forall fuel l now ex rest, wh_expire fuel l now = (ex, rest) -> NoDup (map w_ctr l) ->
  NoDup (map w_ctr ex) /\ NoDup (map w_ctr rest) /\ forall c, In c (map w_ctr ex) -> ~ In c (map w_ctr rest).
Proof. exact wh_expire_once. Qed.
(* a timer only reacts to the event carrying its current registration token *)
Theorem C05_token_check : forall scr s o ob ev,
  objs s o = Some ob -> src_has_tok (o_src ob) (unpack (ev_key ev)) = false ->
  log (fst (obj_process scr s o ev)) = log s /\ snd (obj_process scr s o ev) = Some Continue.
Proof. exact obj_process_no_token. Qed.
(* a cancelled (unregistered) timer holds no token: whatever is still in a batch is ignored *)
Theorem C05_unregistered_silent : forall e x x' e', src_unregister e x = (true, x', e') -> src_silent x'.
Proof. exact src_unregister_silent. Qed.

(* a cancelled arming (disable, remove, the unregister half of update/enable - also of a Timer that is a sub-source of a
   composite) leaves the wheel, so by C05_expire it can never fire; every other arming stays. Counters are unique in the wheel
   except after the stale-batch-event corner of finding F5, which is why that is a hypothesis here *)
Theorem C05_cancelled_arming_leaves_wheel : forall e t tk c, tm_reg t = Some (tk, c) -> NoDup (map w_ctr (wh_heap (whl e))) ->
  ~ In c (map w_ctr (wh_heap (whl (snd (timer_unregister e t))))).
Proof. intros e t tk c H Hnd. unfold timer_unregister. rewrite H. cbn. apply wh_cancel_removes. exact Hnd. Qed.
Theorem C05_cancel_keeps_other_armings : forall w c e, In e (wh_heap w) -> w_ctr e <> c -> In e (wh_heap (wh_cancel w c)).
Proof. exact wh_cancel_keeps. Qed.

(* met by a concrete wheel: three armings (deadlines 9, 2, 5; counters 0, 1, 2), now = 5: the entries with deadlines 2 and 5 are popped,
   in that order, 9 stays; and unregistering the timer armed with counter 2 removes exactly that entry *)
Example C05_nonvacuous :
  let hp := [mkW 9 (mkTok 2 0 0) 0; mkW 2 (mkTok 0 0 0) 1; mkW 5 (mkTok 1 0 0) 2] in
  let e0 := mkEnv [] (mkWheel hp 3) (fun _ => 0) (fun _ => None) (fun _ => None) in
  let tm := mkTimer (Some (mkTok 1 0 0, 2)) (Some 5%Z) true in
  wh_expire (length hp) hp 5%Z = ([mkW 2 (mkTok 0 0 0) 1; mkW 5 (mkTok 1 0 0) 2], [mkW 9 (mkTok 2 0 0) 0]) /\
  NoDup (map w_ctr (wh_heap (whl e0))) /\
  wh_heap (whl (snd (timer_unregister e0 tm))) = [mkW 9 (mkTok 2 0 0) 0; mkW 2 (mkTok 0 0 0) 1].
Proof. cbv zeta. split; [vm_compute; reflexivity|split; [|vm_compute; reflexivity]]. repeat constructor; cbn; intuition discriminate. Qed.

(* KNOWN FINDING F5 (recorded, not repaired): the whole-history statement "each arming fires exactly once, never early"
   is refuted by re-arming a timer from another callback while its expiry is already in the batch: the model reproduces
   the early callback (deadline 12 delivered at phase 1, i.e. now = 3). *)
Definition F5_scr : scripts := fun h =>
  if h =? 1 then [mkScript [ASetDl 2 12; AUpdate 2] 0 0%Z] else if h =? 2 then [mkScript [] 1 16%Z] else [].
Definition F5_cmds : list cmd :=
  [CAct (AInsert 1 (SComp false None [mkGen 10 (mkInt true false) Level None false] None));
   CAct (AInsert 2 (STimer (mkTimer None (Some 2%Z) false)));
   CAct (AFdWrite 10 1); CDispatch 1%Z [1; 4294967296]].
Theorem C05_F5_refuted : In (L T_CB [2; 0; 12]%Z) (trace_of (run F5_scr (fun _ => []) F5_cmds)).
Proof. vm_compute. do 11 right. left. reflexivity. Qed.
