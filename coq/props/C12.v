(* C12  dispatch() waits exactly as long as it should: no spinning, no oversleeping.  (PARTIAL: the arithmetic and the
   "limit fires" step are proved; the waiting itself is the kernel's and is measured by the check.) *)
From CV Require Import Base Env Timeout.
From CVP Require Import Env_lemmas Timeout_proofs.
Open Scope Z_scope.

(* the wait is unbounded only if there is no timeout, no synthetic event and no armed timer *)
Theorem C12_none_iff : forall timeout syn next now,
  eff_timeout timeout syn next now = None <-> (syn = false /\ timeout = None /\ next = None).
Proof. exact eff_none. Qed.
(* otherwise it is exactly the smaller of the (possibly zeroed) timeout and the saturating time to the earliest deadline *)
Theorem C12_effective : forall timeout syn next now e, eff_timeout timeout syn next now = Some e ->
  let t := if syn then Some 0 else timeout in
  (forall x, t = Some x -> e <= x) /\ (forall d, next = Some d -> e <= sat_since d now) /\
  (t = Some e \/ exists d, next = Some d /\ e = sat_since d now).
Proof. exact eff_spec. Qed.
(* the time to a deadline saturates at zero: an expired timer makes the wait non-blocking, never negative *)
Theorem C12_saturating : forall d now, 0 <= sat_since d now /\ (now <= d -> sat_since d now = d - now) /\ (d <= now -> sat_since d now = 0).
Proof. exact sat_since_nonneg. Qed.
Theorem C12_zero_never_blocks : forall syn next now, eff_timeout (Some 0) syn next now = Some 0.
Proof. exact eff_zero. Qed.
(* when the wait ends at or after the earliest deadline, a timer with that deadline is among the expired ones *)
Theorem C12_limit_fires : forall l d now', wh_next_deadline (mkWheel l 0%N) = Some d -> d <= now' ->
  exists e, In e (fst (wh_expire (length l) l now')) /\ w_dl e = d.
Proof. exact limit_fires. Qed.

(* the earliest deadline that bounds the wait is that of a LIVE arming: after a timer was cancelled (disable, remove, the
   unregister half of update/enable) the next deadline is the earliest one among the other armings, or none if there is no
   other - the cancelled arming no longer shortens any wait. Counters are unique in the wheel except after the
   stale-batch-event corner of finding F5 (see C05) *)
Theorem C12_cancelled_arming_never_shortens_wait : forall w c d, NoDup (map w_ctr (wh_heap w)) -> wh_next_deadline (wh_cancel w c) = Some d ->
  exists e, In e (wh_heap w) /\ w_ctr e <> c /\ w_dl e = d /\ forall e', In e' (wh_heap w) -> w_ctr e' <> c -> d <= w_dl e'.
Proof. exact wh_next_after_cancel. Qed.
Theorem C12_no_other_arming_no_deadline : forall w c, NoDup (map w_ctr (wh_heap w)) -> wh_next_deadline (wh_cancel w c) = None ->
  forall e, In e (wh_heap w) -> w_ctr e = c.
Proof. intros w c _. apply wh_next_none_after_cancel. Qed.

Example C12_nonvacuous : eff_timeout (Some 400) false (Some 1100) 1000 = Some 100 /\ eff_timeout None false (Some 900) 1000 = Some 0.
Proof. split; reflexivity. Qed.

(* no spinning: the wait handed to the poller is zero only for a reason - the caller asked for zero, a synthetic event is pending,
   or a timer is already due *)
Theorem C12_zero_wait_only_for_a_cause : forall timeout syn next now, (forall x, timeout = Some x -> 0 <= x) ->
  eff_timeout timeout syn next now = Some 0 -> syn = true \/ timeout = Some 0 \/ exists d, next = Some d /\ d <= now.
Proof. exact eff_zero_only_for_cause. Qed.
(* no oversleeping and no early return: the wait ends no later than the caller's timeout and no later than the earliest deadline,
   and exactly at one of the two *)
Theorem C12_wait_ends_exactly_at_timeout_or_deadline : forall timeout next now e, eff_timeout timeout false next now = Some e ->
  (forall x, timeout = Some x -> e <= x) /\ (forall d, next = Some d -> now + e <= Z.max now d) /\
  (timeout = Some e \/ exists d, next = Some d /\ now + e = Z.max now d).
Proof. intros timeout next now e H. destruct (eff_never_late _ _ _ _ H) as [A B]. split; [exact A|split; [exact B|exact (eff_never_early _ _ _ _ H)]]. Qed.
Print Assumptions C12_zero_wait_only_for_a_cause.
Print Assumptions C12_wait_ends_exactly_at_timeout_or_deadline.
