(* C14  before_sleep/before_handle_events: once per dispatch, in order, right events. *)
From CV Require Import Base Token Env Loop.
From CVP Require Import Seq_lemmas C06_proofs C14_life C14_life2 C14_once.
Open Scope N_scope.

(* the set of sources with lifecycle events: recording is idempotent (no duplicate entry after update/Reregister),
   and stays duplicate-free under both operations *)
Theorem C14_register_nodup : forall l t, NoDup l -> NoDup (lc_register l t) /\ In t (lc_register l t).
Proof. intros l t H. split; [apply lc_register_nodup; exact H|apply lc_register_in]. Qed.
Theorem C14_unregister_removes : forall l t, NoDup l -> NoDup (lc_unregister l t) /\ ~ In t (lc_unregister l t) /\
  forall x, x <> t -> In x l -> In x (lc_unregister l t).
Proof. intros l t H. split; [apply lc_unregister_nodup; exact H|]. split; [apply lc_unregister_not_in|apply lc_unregister_other]. Qed.
(* an entry is recorded only once the source registered successfully: a failed registration leaves the set as it was *)
Theorem C14_failed_register_no_entry : forall s o t r s', disp_register s o t = (r, s') -> r <> ROk -> lifecycle s' = lifecycle s.
Proof. exact disp_register_fail_lifecycle. Qed.
(* disable / remove always drop the entry, even when the source's own unregister fails *)
Theorem C14_unregister_drops_entry : forall s o t r s' ob,
  objs s o = Some ob -> src_lc (o_src ob) = true -> disp_unregister s o t = (r, true, s') -> is_running s o = false ->
  ~ In t (lifecycle s').
Proof. exact disp_unregister_drops_lifecycle. Qed.
(* the iterator handed to before_handle_events: exactly the polled events of that source (same slot and generation),
   never an event of another source; synthetic events are not part of `polled` at all (dispatch passes the poll result) *)
Theorem C14_iterator_exact : forall t (polled : list pevent) e,
  In e (filter (fun e => same_source_as (unpack (ev_key e)) t) polled) <->
  In e polled /\ same_source_as (unpack (ev_key e)) t = true.
Proof. intros. apply filter_In. Qed.
(* when every entry resolves to an occupied slot the before_sleep loop never reaches unreachable!() *)
Theorem C14_no_unreachable_if_resolved : forall bscr l s,
  (forall t, In t l -> exists o, lc_lookup s t = Some o) -> snd (before_sleep_loop bscr s l) <> BSPanic.
Proof. exact before_sleep_loop_no_panic. Qed.

(* WHOLE HISTORIES of top-level operations: after ANY sequence of insert (also failing ones), remove, enable, disable, update,
   set_interest, set_deadline, into_inner, dropped dispatchers, pings, sends and idles issued on the empty loop, every lifecycle
   entry resolves to an occupied slot holding a lifecycle source (INV), so the two lifecycle loops of the next dispatch cannot
   reach unreachable!(). (The repaired defect F2 broke exactly this.) *)
Theorem C14_lifecycle_consistent_after_any_operations : forall acts, INV (exec_actions init acts).
Proof. intros acts. apply INV_exec_actions. exact INV_init. Qed.
Theorem C14_next_dispatch_never_unreachable : forall acts bscr, let s := exec_actions init acts in
  snd (before_sleep_loop bscr s (lifecycle s)) <> BSPanic /\
  forall e2 line polled, let s1 := fst (before_sleep_loop bscr s (lifecycle s)) in
    snd (before_handle_loop (emit (set_en s1 e2) line) (lifecycle (emit (set_en s1 e2) line)) polled) = true.
Proof. exact lifecycle_loops_safe. Qed.

(* WHOLE HISTORIES INCLUDING CALLBACKS. Q: every lifecycle entry has sub-id 0 and resolves to an occupied slot holding an existing
   lifecycle source - except, while a source is being processed, that source's own entry (it may have vacated its slot; its
   unregistration is deferred to the end of its processing); objects held by slots exist and sit in one slot only; slots are
   well formed; the slot of the running source's token is at the token's generation holding that source or nothing, or further
   on. Q holds initially and is preserved by every action in any context (also inside callbacks and idles), by callbacks with
   arbitrary scripts, by the channel drain loop and timer re-arming, by the post-action switch and the deferred unregistration
   at the end of an event (which resolves the exception: F15's corner, and the self-removal + slot-reuse corner of seeds C16 /
   C08b), by the idle phase, by dispatch and by every command. Hence EVERY state reached by ANY scenario has either halted in an
   excluded call or satisfies Q with nothing running (C14_every_reachable_state), and the lifecycle loops of a dispatch started
   there never reach unreachable!() (C14_never_unreachable). Hypothesis: no slot generation reaches 65536 (the properties' own
   bound on slot reuse). *)
Theorem C14_every_reachable_state : forall scr bscr cmds, gens_small (slots (run scr bscr cmds)) -> TOP (run scr bscr cmds).
Proof. exact run_TOP. Qed.
Theorem C14_never_unreachable : forall scr bscr cmds, gens_small (slots (run scr bscr cmds)) -> halted (run scr bscr cmds) = false ->
  let s := run scr bscr cmds in
  snd (before_sleep_loop bscr s (lifecycle s)) <> BSPanic /\
  forall e2 line polled, let s1 := fst (before_sleep_loop bscr s (lifecycle s)) in
    snd (before_handle_loop (emit (set_en s1 e2) line) (lifecycle (emit (set_en s1 e2) line)) polled) = true.
Proof. exact never_unreachable. Qed.

(* EXACTLY ONCE PER DISPATCH, whole histories.
   (1) Over any scenario - no hypothesis at all - the lifecycle list only ever changes by lc_register (of a token with sub-id 0)
       and lc_unregister, so it never holds a token twice (the repaired defect F1 was a duplicate entry after update()).
   (2) In every reachable state distinct entries resolve to distinct sources (an object sits in at most one slot), so in the
       before_sleep loop of the next dispatch each source's before_sleep counter grows by exactly one if the loop completes
       (never by more if a hook returns an error), and stays put for every object that is not a lifecycle source;
   (3) the before_handle_events loop of that dispatch never fails and appends exactly one BH line per entry, in list order, each
       with the polled events of that entry's token, for pairwise distinct sources. *)
Theorem C14_lifecycle_list_never_repeats : forall scr bscr cmds, NoDup (lifecycle (run scr bscr cmds)).
Proof. exact lifecycle_nodup_run. Qed.
Theorem C14_lifecycle_list_changes_only_by_register_unregister : forall scr bscr cmds s,
  lcstep (lifecycle s) (lifecycle (fold_left (exec_cmd scr bscr) cmds s)).
Proof. intros scr bscr cmds s. apply lc_exec_cmds. Qed.
Theorem C14_before_sleep_exactly_once_per_dispatch : forall scr bscr cmds o,
  let s := run scr bscr cmds in gens_small (slots s) -> halted s = false ->
  let r := before_sleep_loop bscr s (lifecycle s) in
  (bsn (fst r) o <= S (bsn s o))%nat /\
  (snd r = BSOk -> (exists t, In t (lifecycle s) /\ lc_lookup s t = Some o) -> bsn (fst r) o = S (bsn s o)) /\
  (snd r = BSOk -> (forall t, In t (lifecycle s) -> lc_lookup s t <> Some o) -> bsn (fst r) o = bsn s o).
Proof. exact before_sleep_once_per_dispatch. Qed.
Theorem C14_before_handle_exactly_once_per_dispatch : forall scr bscr cmds e2 line polled,
  let s := run scr bscr cmds in gens_small (slots s) -> halted s = false ->
  let s3 := emit (set_en (fst (before_sleep_loop bscr s (lifecycle s))) e2) line in
  let r := before_handle_loop s3 (lifecycle s3) polled in
  snd r = true /\ lifecycle s3 = lifecycle s /\
  log (fst r) = rev (map (bh_line s3 polled) (lifecycle s3)) ++ log s3 /\
  NoDup (map (lc_lookup s3) (lifecycle s3)) /\ (forall t, In t (lifecycle s3) -> lc_lookup s3 t <> None).
Proof. exact before_handle_once_per_dispatch. Qed.
(* met by a real history: two lifecycle composites, each updated (twice for the first), one disabled and re-enabled: two
   entries, and the next dispatch calls before_sleep once for each *)
Example C14_once_nonvacuous :
  let g10 := mkGen 10 (mkInt true false) Level None false in
  let g11 := mkGen 11 (mkInt true false) Level None false in
  let pre := [CAct (AInsert 1 (SComp true None [g10] None)); CAct (AUpdate 1); CAct (AInsert 2 (SComp true None [g11] None));
              CAct (AUpdate 2); CAct (AUpdate 1); CAct (ADisable 2); CAct (AEnable 2)] in
  let s := run (fun _ => []) (fun _ => []) pre in
  let r := before_sleep_loop (fun _ => []) s (lifecycle s) in
  halted s = false /\ lifecycle s = [mkTok 0 0 0; mkTok 1 0 0] /\ lc_lookup s (mkTok 0 0 0) = Some 1 /\ lc_lookup s (mkTok 1 0 0) = Some 2 /\
  snd r = BSOk /\ (bsn s 1, bsn s 2, bsn s 3) = (0, 0, 0)%nat /\ (bsn (fst r) 1, bsn (fst r) 2, bsn (fst r) 3) = (1, 1, 0)%nat /\
  filter (fun l => match l with L k _ => N.eqb k 3 end) (trace_of (run (fun _ => []) (fun _ => []) (pre ++ [CDispatch 0%Z []])))
    = [L 3 [1%Z; 0%Z]; L 3 [2%Z; 0%Z]].
Proof. vm_compute. repeat split. Qed.

Example C14_nonvacuous :
  let t := mkTok 2 5 0 in NoDup [mkTok 1 0 0; t] /\ lc_register [mkTok 1 0 0; t] t = [mkTok 1 0 0; t] /\ lc_unregister [mkTok 1 0 0; t] t = [mkTok 1 0 0].
Proof. repeat split; try reflexivity. repeat constructor; cbn; intuition discriminate. Qed.
