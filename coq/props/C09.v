(* C09  A post-action is applied once, to the source that asked for it, and to no other.
   Only statements, `exact`, and Print Assumptions live here. *)
From CV Require Import Base Token PostAction Env Loop.
From CVP Require Import PostAction_proofs Loop_actions C09_proofs.
From CVP Require Import C09_last.
Open Scope N_scope.

(* `a | b` is the common value when both are equal and Reregister otherwise (all 16 pairs) *)
Theorem C09_bitor : forall a b, pa_bitor a b = a /\ a = b \/ pa_bitor a b = Reregister /\ a <> b.
Proof. exact pa_bitor_spec. Qed.
Theorem C09_bitor_assign : forall a b, pa_bitor_assign a b = pa_bitor a b.
Proof. exact pa_bitor_assign_eq. Qed.

(* whatever a callback does and returns - including an error - once its event has been processed nothing is
   being processed and no action is pending: nothing carries over to the next event or the next source *)
Theorem C09_no_leak_event : forall scr s ev,
  quiet s -> halted (fst (process_event scr s ev)) = false -> quiet (fst (process_event scr s ev)).
Proof. exact process_event_quiet. Qed.

(* for every scenario (any sources, scripts, batch orders, faults): every top-level state reached without a panic
   has no pending action *)
Theorem C09_no_leak_run : forall scr bscr cmds,
  halted (run scr bscr cmds) = false -> quiet (run scr bscr cmds).
Proof. exact run_quiet. Qed.

(* a deferred action is only ever recorded by update()/disable() ... *)
Theorem C09_only_update_disable_defer : forall s a,
  (forall h, a <> AUpdate h) -> (forall h, a <> ADisable h) -> pending (exec_action s a) = pending s.
Proof. exact pending_exec_action_other. Qed.
(* ... aimed at the source whose callback is running (never for another source, never outside a callback) *)
Theorem C09_update_defers_only_self : forall s h,
  pending (exec_action s (AUpdate h)) = pending s \/
  exists t et o reg, lookup s h = Some (t, et, o) /\ running s = Some (o, reg) /\ pending (exec_action s (AUpdate h)) = Reregister.
Proof. exact pending_update_self. Qed.
Theorem C09_disable_defers_only_self : forall s h,
  pending (exec_action s (ADisable h)) = pending s \/
  exists t et o reg, lookup s h = Some (t, et, o) /\ running s = Some (o, reg) /\ pending (exec_action s (ADisable h)) = Disable.
Proof. exact pending_disable_self. Qed.
Theorem C09_outside_processing_nothing_defers : forall s a, running s = None -> pending (exec_action s a) = pending s.
Proof. exact pending_exec_action. Qed.

(* non-vacuity: the initial state is quiet, and a concrete scenario with a failing, self-disabling source ends quiet *)
Example C09_nonvacuous :
  quiet init /\
  let scr := fun h => if h =? 1 then [mkScript [ADisable 1] 4 0%Z] else [] in
  let cmds := [CAct (AInsert 1 (SComp false None [mkGen 10 (mkInt true false) Level None false] None));
               CAct (AFdWrite 10 1); CDispatch 0%Z []] in
  halted (run scr (fun _ => []) cmds) = false /\ pending (run scr (fun _ => []) cmds) = Continue.
Proof. split; [split; reflexivity|]. vm_compute. split; reflexivity. Qed.

(* Several requests by the running source on itself inside one callback: each replaces what was pending, nothing is merged and
   nothing is applied on the spot - the LAST one is what the end of the event's processing applies (unless the callback's own return
   value overrides it, C09_return_overrides_pending). Holds in any state in which the handle names the running source. *)
Theorem C09_last_deferred_request_wins : forall s h, self_handle s h ->
  pending (exec_action (exec_action s (AUpdate h)) (ADisable h)) = Disable /\
  pending (exec_action (exec_action s (ADisable h)) (AUpdate h)) = Reregister /\
  pending (exec_action (exec_action s (ADisable h)) (ADisable h)) = Disable /\
  pending (exec_action (exec_action s (AUpdate h)) (AUpdate h)) = Reregister.
Proof. exact last_deferred_request_wins. Qed.
Theorem C09_self_request_only_sets_pending : forall s h, self_handle s h ->
  exec_action s (AUpdate h) = emit (set_pending s Reregister) (op_line OP_UPDATE h ROk) /\
  exec_action s (ADisable h) = emit (set_pending s Disable) (op_line OP_DISABLE h ROk).
Proof. intros s h H. split; [exact (self_update_exact s h H)|exact (self_disable_exact s h H)]. Qed.
Example C09_self_handle_nonvacuous :
  let s := set_running (exec_action init (AInsert 1 (SComp false None [mkGen 10 (mkInt true false) Level None false] None))) (Some (1, mkTok 0 0 0)) in
  self_handle s 1 /\ pending (exec_action (exec_action s (AUpdate 1)) (ADisable 1)) = Disable.
Proof. exact self_handle_somewhere. Qed.
Print Assumptions C09_last_deferred_request_wins.
Print Assumptions C09_self_request_only_sets_pending.
