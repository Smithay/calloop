(* C02  Pending readiness is always dispatched (no lost or starved events). *)
From CV Require Import Base Token Env Loop.
From Coq Require Import Permutation.
From CVP Require Import Env_lemmas C01_attr C02_deliver.
From CVP Require Import C02_poll.
Import ListNotations.
Open Scope N_scope.

(* level-triggered: a registered entry that is ready for its interest is reported by every wait *)
Theorem C02_level : forall fdc tbl e,
  In e tbl -> e_mode e = Level -> rd_nonempty (ready_for (e_int e) (fdc (e_fd e))) = true ->
  In (mkEv (e_key e) (ready_for (e_int e) (fdc (e_fd e)))) (fst (ep_wait fdc tbl)).
Proof. exact ep_wait_level. Qed.
(* one-shot: a report disarms the entry, and a disarmed entry is not reported again (until update re-arms it) *)
Theorem C02_oneshot_once : forall fdc e ev, e_mode e = OneShot -> ep_report fdc e = Some ev -> e_q (ep_after fdc e) = false.
Proof. exact ep_after_oneshot. Qed.
Theorem C02_oneshot_disarmed : forall fdc e, e_mode e = OneShot -> e_q e = false -> ep_report fdc e = None.
Proof. exact ep_report_disarmed. Qed.
(* edge: a queued (new readiness transition) and still ready entry is reported *)
Theorem C02_edge : forall fdc e, e_mode e = Edge -> e_q e = true -> rd_nonempty (ready_for (e_int e) (fdc (e_fd e))) = true ->
  ep_report fdc e = Some (mkEv (e_key e) (ready_for (e_int e) (fdc (e_fd e)))).
Proof. exact ep_report_edge. Qed.
(* timers: nothing that is due stays in the wheel after a poll *)
Theorem C02_due_timers_all_popped : forall l now ex rest, wh_expire (length l) l now = (ex, rest) ->
  Forall (fun e => (now < w_dl e)%Z) rest.
Proof. intros l now ex rest H. destruct (wh_expire_spec (length l) l now ex rest H) as (_ & _ & _ & _ & F). apply F. apply le_n. Qed.
(* FROM THE POLLER TO THE CALLBACK, nothing is dropped on the way.
   (1) one poll hands the loop every level-triggered entry that is ready for its interest and every timer that is due - the batch
       order is the implementation's, but reordering loses nothing (`reorder_perm`); *)
Theorem C02_poll_reports_every_ready_level_entry : forall e t order ent, In ent (epoll e) -> e_mode ent = Level ->
  rd_nonempty (ready_for (e_int ent) (fdc e (e_fd ent))) = true ->
  In (mkEv (e_key ent) (ready_for (e_int ent) (fdc e (e_fd ent)))) (fst (poll e t order)).
Proof. exact poll_reports_level. Qed.
Theorem C02_poll_reports_every_due_timer : forall e t order w, In w (wh_heap (whl e)) -> (w_dl w <= 2 * t + 1)%Z ->
  In (mkEv (pack (w_tok w)) (mkRd true false)) (fst (poll e t order)).
Proof. exact poll_reports_due_timer. Qed.
Theorem C02_batch_is_a_permutation : forall order l, Permutation (reorder order l) l.
Proof. exact reorder_perm. Qed.
(* (2) a batch that is processed without an error is processed event by event: each event is handed to process_event in the state
       reached by the events before it (an Err stops the batch: finding F4); *)
Theorem C02_ok_batch_processes_every_event : forall scr s a ev b, snd (process_events scr s (a ++ ev :: b)) = true ->
  exists s1, process_events scr s a = (s1, true) /\ snd (process_event scr s1 ev) = true /\
             process_events scr s (a ++ ev :: b) = process_events scr (fst (process_event scr s1 ev)) b.
Proof. exact ok_batch_processes_every_event. Qed.
(* (3) an event whose slot resolves to object o is handed to o, and if o holds the event's token its callback counter goes up by
       exactly one - for a composite (own token or a sub-source's), a Timer (its armed token) and a ping source (its token, with a
       ping pending); nothing after the callback (post action, deferred unregistration, end of processing) touches the counter.
       With C01_callbacks_attributed (only then) this is: exactly the sources whose events are in the batch are called. *)
Theorem C02_composite_event_invokes_callback : forall scr s o ob ev lc own subs tmr,
  objs s o = Some ob -> o_src ob = SComp lc own subs tmr ->
  (opt_tok_is own (unpack (ev_key ev)) = true \/ find_sub subs (unpack (ev_key ev)) 1 <> None) ->
  Loop.cbn (fst (obj_process scr s o ev)) o = S (Loop.cbn s o).
Proof. exact composite_event_invokes_callback. Qed.
Theorem C02_timer_event_invokes_callback : forall scr s o ob ev tm tk c dl,
  objs s o = Some ob -> o_src ob = STimer tm -> tm_reg tm = Some (tk, c) -> tm_dl tm = Some dl -> tok_eqb tk (unpack (ev_key ev)) = true ->
  Loop.cbn (fst (obj_process scr s o ev)) o = S (Loop.cbn s o).
Proof. exact timer_event_invokes_callback. Qed.
Theorem C02_ping_event_invokes_callback : forall scr s o ob ev g,
  objs s o = Some ob -> o_src ob = SPing g -> opt_tok_is (g_tok g) (unpack (ev_key ev)) = true -> 2 <= fdc (en s) (g_fd g) ->
  Loop.cbn (fst (obj_process scr s o ev)) o = S (Loop.cbn s o).
Proof. exact ping_event_invokes_callback. Qed.
Theorem C02_rest_of_processing_keeps_the_count : forall scr s ev sl o,
  slot_get (slots s) (forget_sub_id (unpack (ev_key ev))) = Some sl -> s_obj sl = Some o ->
  Loop.cbn (fst (process_event scr s ev)) = Loop.cbn (fst (obj_process scr (set_running s (Some (o, forget_sub_id (unpack (ev_key ev))))) o ev)).
Proof. exact process_event_keeps_count_of_obj_process. Qed.

Example C02_nonvacuous :
  let e := mkEp 10 (mkInt true false) Level 77 false in
  In (mkEv 77 (mkRd true false)) (fst (ep_wait (fun _ => 2) [e])).
Proof. vm_compute. left. reflexivity. Qed.
(* the whole path on a real history: a composite over fd 10 (readable) and a timer due at phase 0 are both in the batch of one
   dispatch, whatever order is asked for, and both callbacks run once *)
Example C02_delivery_nonvacuous :
  let pre := [CAct (AInsert 1 (SComp false None [mkGen 10 (mkInt true false) Level None false] None));
              CAct (AInsert 2 (STimer (mkTimer None (Some 0%Z) false))); CAct (AFdWrite 10 1)] in
  let a := run (fun _ => []) (fun _ => []) pre in
  let b := run (fun _ => []) (fun _ => []) (pre ++ [CDispatch 0%Z [4294967296; 1]]) in
  length (fst (poll (en a) 0%Z [4294967296; 1])) = 2%nat /\ (Loop.cbn a 1, Loop.cbn a 2) = (0, 0)%nat /\ (Loop.cbn b 1, Loop.cbn b 2) = (1, 1)%nat.
Proof. vm_compute. repeat split. Qed.

(* Synthetic events never replace the poll: every dispatch whose before_sleep hooks succeeded asks the poller - whatever the hooks produced -
   and hands synthetic ++ polled to process_events; with C02_ok_batch... every one of them is then processed. *)
Theorem C02_synthetic_events_never_replace_the_poll : forall scr bscr s t order s1 polled e2 s4,
  before_sleep_loop bscr s (lifecycle s) = (s1, BSOk) ->
  poll (en s1) t order = (polled, e2) ->
  before_handle_loop (emit (set_en s1 e2) (L T_BATCH (zsort (map ev_code polled)))) (lifecycle (emit (set_en s1 e2) (L T_BATCH (zsort (map ev_code polled))))) polled = (s4, true) ->
  dispatch scr bscr s t order =
    let (s5, ok2) := process_events scr (set_synth s4 []) (synth s4 ++ polled) in
    if halted s5 then s5
    else if negb ok2 then emit s5 (L T_DISP [t; DISP_ERR])
    else let s6 := run_idles scr (set_idles s5 []) (idles s5) in if halted s6 then s6 else emit s6 (L T_DISP [t; DISP_OK]).
Proof. exact dispatch_always_polls. Qed.
(* met by a real history: a lifecycle source whose before_sleep produces a synthetic event, and a ready fd source: ONE dispatch calls both *)
Example C02_synthetic_and_polled_in_one_dispatch :
  let pre := [CAct (AInsert 1 (SComp true None [mkGen 10 (mkInt true false) Level None false] None));
              CAct (AInsert 2 (SComp false None [mkGen 11 (mkInt true false) Level None false] None)); CAct (AFdWrite 11 1)] in
  let b := run (fun _ => []) (fun h => if h =? 1 then [1] else []) (pre ++ [CDispatch 0%Z []]) in
  (Loop.cbn b 1, Loop.cbn b 2) = (1, 1)%nat.
Proof. vm_compute. reflexivity. Qed.
Print Assumptions C02_synthetic_events_never_replace_the_poll.
