(* C16  The OS poller holds exactly the fds of enabled sources, nothing stale. *)
From CV Require Import Base Token Env Loop GenLife.
From CVP Require Import Seq_lemmas GenLife_proofs C16_owner.
Import ListNotations.
Open Scope N_scope.

(* register: the fd was absent, is present afterwards with exactly the interest, mode and key asked for, and no other
   fd's entry changes *)
Theorem C16_register : forall e g t g' e', gen_register e g t = (true, g', e') ->
  ep_find (epoll e) (g_fd g) = None /\
  (exists q, ep_find (epoll e') (g_fd g) = Some (mkEp (g_fd g) (g_int g) (g_mode g) (pack t) q)) /\
  (forall fd', fd' <> g_fd g -> ep_find (epoll e') fd' = ep_find (epoll e) fd') /\
  g_tok g' = Some t /\ g_poller g' = true.
Proof. exact gen_register_ok. Qed.
(* unregister (disable / remove): the fd is gone, every other entry untouched, the source forgets token and poller *)
Theorem C16_unregister : forall e g g' e', gen_unregister e g = (true, g', e') ->
  ep_find (epoll e') (g_fd g) = None /\ (forall fd', fd' <> g_fd g -> ep_find (epoll e') fd' = ep_find (epoll e) fd') /\
  g_tok g' = None /\ g_poller g' = false.
Proof. exact gen_unregister_ok. Qed.
(* Drop / unwrap of a source that still records a poller deletes its fd: the same fd can be inserted again *)
Theorem C16_drop_clears : forall e g, g_poller g = true -> ep_find (epoll (gen_drop e g)) (g_fd g) = None.
Proof. exact gen_drop_clears. Qed.
Theorem C16_reinsertable : forall tbl fd it m key c, ep_find tbl fd = None -> exists tbl', ep_add tbl fd it m key c = Some tbl'.
Proof. intros. unfold ep_add. rewrite H. eexists; reflexivity. Qed.
(* a double registration of one fd is refused (EEXIST) instead of silently replacing the entry *)
Theorem C16_no_double : forall tbl fd it m key c e, ep_find tbl fd = Some e -> ep_add tbl fd it m key c = None.
Proof. intros. unfold ep_add. rewrite H. reflexivity. Qed.

(* WHOLE HISTORIES at the level of Generic (coq/theories/GenLife.v: Generic::new, the public interest / mode fields, register,
   reregister, unregister, unwrap and Drop over any number of Generic objects and fds, two objects possibly wrapping one fd, whose
   second registration fails with EEXIST). After ANY history, failed registrations included:
   - every entry of the poller's table belongs to a registered Generic and carries the interest, mode and key that Generic last
     (re)registered; every registered Generic has its entry; no two registered Generics share an fd - nothing stale, nothing missing;
   - once a registered Generic has been unregistered, unwrapped or dropped its fd is out of the table, and a fresh Generic over the
     same fd registers without error.
   `gl_last` is ghost state used only to say "what it last registered". Protocol: unregister / reregister are only issued for a
   registered Generic (what the loop does); everything else, including operations on objects that do not exist, is in. *)
Theorem C16_generic_table_exact : forall ops, let s := gl_exec ops in
  (forall fd ent, ep_find (epoll (gl_env s)) fd = Some ent ->
     exists g gn, gl_gens s g = Some gn /\ g_fd gn = fd /\ registered gn /\ gl_last s g = Some (e_int ent, e_mode ent, e_key ent)) /\
  (forall g gn, gl_gens s g = Some gn -> registered gn ->
     exists ent, ep_find (epoll (gl_env s)) (g_fd gn) = Some ent /\ gl_last s g = Some (e_int ent, e_mode ent, e_key ent)) /\
  (forall g1 g2 gn1 gn2, gl_gens s g1 = Some gn1 -> gl_gens s g2 = Some gn2 -> registered gn1 -> registered gn2 ->
     g_fd gn1 = g_fd gn2 -> g1 = g2).
Proof. exact table_exact. Qed.
Theorem C16_released_fd_is_gone_and_reinsertable : forall ops o g gn g2 it m k,
  let s := gl_exec ops in gl_gens s g = Some gn -> registered gn -> (o = GUnreg g \/ o = GUnwrap g \/ o = GDrop g) ->
  snd (gl_step s o) = G_OK -> g2 <> g -> gl_gens s g2 = None ->
  let s1 := fst (gl_step s o) in let s2 := fst (gl_step s1 (GNew g2 (g_fd gn) it m)) in
  ep_find (epoll (gl_env s1)) (g_fd gn) = None /\ snd (gl_step s2 (GReg g2 k)) = G_OK.
Proof.
  cbv zeta. intros ops o g gn g2 it m k Hg R Ho Hok Hne Hn. split.
  - apply (released_fd_gone _ o g gn (INVG_exec ops) Hg R Ho Hok).
  - apply (released_fd_reinsertable ops o g gn g2 it m k Hg R Ho Hok Hne Hn).
Qed.
(* met by a real history: two Generics on fd 10 (the second registration fails), set + reregister, unwrap of a registered one *)
(* NOTHING STALE, for whole loops, with no hypothesis (shared fds, failed and partial registrations, panics included): in every
   state of every scenario - any commands, callbacks, removals, drops, dispatches, idles - every fd in the poller's table is owned by
   a Generic (a sub-source of a composite, or the eventfd of a ping / channel source) of an object that still exists, and that
   Generic has recorded the poller, so that its Drop or unwrap deletes the fd (C16_drop_clears). An fd can therefore not stay
   registered after everything that could own it is gone. (`EPI`, proved for every function of the model in
   coq/proofs/C16_owner.v; the converse - every enabled source's fd IS in the table - is false with shared fds and is decided by
   comparing the kernel's table with the model.) *)
Theorem C16_nothing_stale_in_any_reachable_state : forall scr bscr cmds fd,
  has (en (run scr bscr cmds)) fd = true ->
  exists o ob g, objs (run scr bscr cmds) o = Some ob /\ In g (gens_of (o_src ob)) /\ g_fd g = fd /\ g_poller g = true.
Proof. exact nothing_stale. Qed.
(* met by a real history: a composite over fds 10 and 11 and a ping source over fd 12 are inserted, the composite is removed while
   the user keeps its Dispatcher, then dropped: before the drop fds 10, 11, 12 are registered... after remove + drop only fd 12 is *)
Example C16_nothing_stale_nonvacuous :
  let g k := mkGen k (mkInt true false) Level None false in
  let pre := [CAct (AInsert 1 (SComp false None [g 10; g 11] None)); CAct (ANewPing 1 12); CAct (AInsert 2 (SPing (g 12)))] in
  let a := run (fun _ => []) (fun _ => []) pre in
  let b := run (fun _ => []) (fun _ => []) (pre ++ [CAct (ARemove 1); CAct (ADropDisp 1)]) in
  (has (en a) 10, has (en a) 11, has (en a) 12) = (true, true, true) /\ (has (en b) 10, has (en b) 11, has (en b) 12) = (false, false, true) /\
  objs b 1 = None.
Proof. vm_compute. repeat split. Qed.

Example C16_generic_nonvacuous :
  let it := mkInt true false in
  let ops := [GNew 1 10 it Level; GReg 1 2; GNew 2 10 (mkInt true true) Edge; GReg 2 0; GSet 1 (mkInt true true) OneShot; GRereg 1 5] in
  map fst (gl_run ops) = [0; 0; 0; 1; 0; 0] /\
  (exists gn, gl_gens (gl_exec ops) 1 = Some gn /\ registered gn /\ gl_last (gl_exec ops) 1 = Some (mkInt true true, OneShot, 5)) /\
  snd (gl_step (gl_exec ops) (GUnwrap 1)) = G_OK /\ gl_table (fst (gl_step (gl_exec ops) (GUnwrap 1))) = [].
Proof. vm_compute. split; [reflexivity|split; [eexists; split; [reflexivity|split; [discriminate|reflexivity]]|split; reflexivity]]. Qed.

Example C16_nonvacuous :
  exists g' e', gen_register (en init) (mkGen 10 (mkInt true false) Level None false) (mkTok 0 0 1) = (true, g', e').
Proof. eexists. eexists. reflexivity. Qed.
