(* C20  Poller keys encode (slot, generation, sub-source) injectively and reversibly.
   Only statements, `exact`, and Print Assumptions live here. *)
From CV Require Import Base Token.
From CVP Require Import Token_proofs.
Open Scope N_scope.

(* decode (encode t) = t for every representable triple *)
Theorem C20_unpack_pack : forall t, wf_tok t -> unpack (pack t) = t.
Proof. exact unpack_pack. Qed.

(* encode (decode k) = k for every 64-bit key, and the decoded fields are representable *)
Theorem C20_pack_unpack : forall k, k < USIZE -> pack (unpack k) = k /\ wf_tok (unpack k).
Proof. intros k H; split; [exact (pack_unpack k H) | exact (unpack_wf k)]. Qed.

(* the key is unique to the triple *)
Theorem C20_inj : forall a b, wf_tok a -> wf_tok b -> pack a = pack b -> a = b.
Proof. exact pack_inj. Qed.

(* never the poller's reserved notification key (usize::MAX) for slot ids below 2^32-1 *)
Theorem C20_not_notify_key : forall t, wf_tok t -> t_id t < U32 - 1 -> pack t <> USIZE_MAX.
Proof. exact pack_not_notify_key. Qed.

(* ... and the bound is tight: slot 2^32-1 with the last generation and sub-id collides *)
Theorem C20_notify_key_bound_tight : pack (mkTok (U32 - 1) (U16 - 1) (U16 - 1)) = USIZE_MAX.
Proof. exact pack_max_id_collides. Qed.

(* the shift/mask form used by the code equals the arithmetic form *)
Theorem C20_bits_eq : forall t, wf_tok t -> pack t = t_id t * U32 + t_ver t * U16 + t_sub t.
Proof. exact pack_arith. Qed.

(* slot reuse bumps the generation modulo 2^16 and resets the sub-id *)
Theorem C20_inc_version : forall t, wf_tok t ->
  increment_version t = mkTok (t_id t) ((t_ver t + 1) mod U16) 0 /\ wf_tok (increment_version t).
Proof. exact increment_version_spec. Qed.

(* the successor sub-id is +1, and asking beyond the representable range fails (panic) *)
Theorem C20_inc_sub : forall t, wf_tok t ->
  increment_sub_id t = if t_sub t + 1 <? U16 then Some (mkTok (t_id t) (t_ver t) (t_sub t + 1)) else None.
Proof. exact increment_sub_id_spec. Qed.

(* a factory asked for n tokens: the i-th token is (id, ver, sub0 + i) - hence pairwise distinct and
   all of the same source - and the request succeeds only while sub0 + n stays representable *)
Theorem C20_factory_tokens : forall n f l, wf_tok f -> factory_take f n = Some l ->
  length l = n /\
  (forall i t, nth_error l i = Some t -> t = mkTok (t_id f) (t_ver f) (t_sub f + N.of_nat i)) /\
  (n = O \/ t_sub f + N.of_nat n < U16).
Proof. exact factory_take_spec. Qed.

Theorem C20_factory_fails_loudly : forall n f, wf_tok f ->
  U16 <= t_sub f + N.of_nat n -> (0 < n)%nat -> factory_take f n = None.
Proof. exact factory_take_fails. Qed.

Theorem C20_factory_succeeds : forall n f, wf_tok f ->
  t_sub f + N.of_nat n < U16 -> exists l, factory_take f n = Some l.
Proof. exact factory_take_succeeds. Qed.

(* non-vacuity: the hypotheses are met by a concrete non-trivial token *)
Example C20_nonvacuous : wf_tok (mkTok 70000 65535 12345) /\ unpack (pack (mkTok 70000 65535 12345)) = mkTok 70000 65535 12345.
Proof. split; [repeat split|reflexivity]. Qed.
