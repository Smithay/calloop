(* C03  Ping wake-ups are never lost across threads; they coalesce; close is clean. *)
From CV Require Import Base ConcPing.
From CVP Require Import ConcPing_proofs.
Open Scope N_scope.

(* For ANY number of pinger threads with ANY well-formed programs of ping/clone/drop, ANY number of dispatches and ANY
   schedule (one eventfd write, eventfd read, Arc count change or poll per step), the invariant holds: the counter
   encodes exactly the pings written since the last drain plus the close marker; the strong count is the number of
   handles alive; the close marker is written at most once and only when no handle is left; the source is removed only by
   a drain that saw the marker. `cbp` callbacks ping their own source from inside the callback (through a handle the
   callback owns): such a ping, and pings of other threads landing while the callback runs, are counted like any other. *)
Theorem C03_invariant : forall progs nd cbp sched, Forall (fun p => wf_prog 1 p = true) progs -> cinv (cp_run progs nd cbp sched).
Proof. exact cinv_run. Qed.
Theorem C03_step_preserves : forall s k, cinv s -> cinv (cp_step s k).
Proof. exact cinv_step. Qed.

(* the drain (whose code tests `2 <= v` for the callback and `odd v` for the removal) calls back iff at least one ping was
   written since the previous drain: no completed ping is lost, no callback without a ping, n pings coalesce into one *)
Theorem C03_callback_iff_pinged : forall s, cinv s -> (2 <=? ctr s) = (1 <=? undrained s).
Proof. exact drain_callback_iff. Qed.
Theorem C03_remove_iff_closed : forall s, cinv s -> N.odd (ctr s) = closemark s.
Proof. exact drain_close_iff. Qed.
(* a written, undrained ping makes the next poll of the registered source return it: the dispatch drains and calls back *)
Theorem C03_progress : forall s, cinv s -> registered s = true -> 1 <= undrained s -> (registered s && (0 <? ctr s)) = true.
Proof. exact poll_progress. Qed.
(* clean close: one marker, after the last handle; the source leaves only then; afterwards the counter stays zero and no
   thread has anything left to write (the loop is not kept spinning) *)
Theorem C03_close_once : forall s, cinv s -> closes s <= 1 /\ (closes s = 1 -> handles s = 0).
Proof. exact close_once. Qed.
Theorem C03_removed_only_after_close : forall s, cinv s -> registered s = false -> handles s = 0 /\ closes s = 1.
Proof. exact removed_only_after_close. Qed.
Theorem C03_quiet_after_removal : forall s, cinv s -> registered s = false ->
  ctr s = 0 /\ Forall (fun t => pt_ops t = [] /\ pt_closing t = false) (thr s).
Proof. exact quiet_after_removal. Qed.

Example C03_nonvacuous :
  let s := cp_run [[PPing; PDrop]; [PClone; PPing; PDrop; PDrop]] 3 0 [1; 1; 2; 2; 2; 2; 2; 0; 0]%nat in
  Forall (fun p => wf_prog 1 p = true) [[PPing; PDrop]; [PClone; PPing; PDrop; PDrop]] /\ registered s = false /\ ctr s = 0.
Proof. vm_compute. repeat split; repeat constructor. Qed.
