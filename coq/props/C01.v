(* C01  Callbacks fire only for their own live registration and a real cause. *)
From CV Require Import Base Token PostAction Env Loop.
From CVP Require Import Token_proofs Loop_frames Seq_lemmas Env_lemmas C01_attr.
Open Scope N_scope.

(* the token check of every built-in source kind: an event whose token is not one the source currently holds never
   reaches its callback (no callback line, Continue) *)
Theorem C01_foreign_event_ignored : forall scr s o ob ev,
  objs s o = Some ob -> src_has_tok (o_src ob) (unpack (ev_key ev)) = false ->
  log (fst (obj_process scr s o ev)) = log s /\ snd (obj_process scr s o ev) = Some Continue.
Proof. exact obj_process_no_token. Qed.

(* the poller only ever reports keys that are registered in its table *)
Theorem C01_only_registered_keys : forall fdc tbl ev, In ev (fst (ep_wait fdc tbl)) -> exists e, In e tbl /\ ev_key ev = e_key e.
Proof. exact ep_wait_keys. Qed.

(* keys decode back to exactly the (slot, generation, sub-source) they were made from, and are unique to it *)
Theorem C01_key_roundtrip : forall t, wf_tok t -> unpack (pack t) = t.
Proof. exact unpack_pack. Qed.
Theorem C01_key_injective : forall a b, wf_tok a -> wf_tok b -> pack a = pack b -> a = b.
Proof. exact pack_inj. Qed.

(* an event for a slot that is vacant, or whose generation differs, is dropped by the loop without touching any source *)
Theorem C01_stale_event_dropped : forall scr s ev,
  lc_lookup s (forget_sub_id (unpack (ev_key ev))) = None -> process_event scr s ev = (s, true).
Proof.
  intros scr s ev H. unfold process_event, lc_lookup in *.
  destruct (slot_get (slots s) _) as [sl|]; [|reflexivity]. rewrite H. reflexivity.
Qed.

(* expired timer events: only entries that are in the wheel and due *)
Theorem C01_timer_events_real : forall fuel l now ex rest, wh_expire fuel l now = (ex, rest) ->
  Forall (fun e => (w_dl e <= now)%Z) ex /\ (forall e, In e ex -> In e l).
Proof. intros fuel l now ex rest H. destruct (wh_expire_spec fuel l now ex rest H) as (A & B & _). split; assumption. Qed.

(* WHOLE HISTORIES: attribution. `cbn s o` counts the callback invocations of object o. In ANY state (reached by any history):
   - processing an event changes the counter of o only if the event's token resolved, generation-checked, to o when its
     processing began - whatever the callbacks do meanwhile (remove, insert into the freed slot, disable, replace ...);
   - no operation (insert, remove, enable, disable, update, ... from anywhere) runs a source callback;
   - the lifecycle loops and the idle phase of a dispatch run no source callback.
   With C06_token_dead_forever (a token that stopped resolving never resolves again) this is the whole-history reading of
   "a source's callback runs only for events of its own live registration, never for an event of another or a removed source";
   the remaining latitude - a source that removes or disables itself may still get the events of the batch entry being
   processed - is exactly the drain loop inside one process_event. *)
Theorem C01_callbacks_attributed : forall scr s ev o,
  Loop.cbn (fst (process_event scr s ev)) o <> Loop.cbn s o -> lc_lookup s (forget_sub_id (unpack (ev_key ev))) = Some o.
Proof. exact process_event_attributed. Qed.
Theorem C01_operations_run_no_callback : forall s a, Loop.cbn (exec_action s a) = Loop.cbn s.
Proof. exact cbc_exec_action. Qed.
Theorem C01_lifecycle_loops_and_idles_run_no_callback : forall scr bscr l polled idl s,
  Loop.cbn (fst (before_sleep_loop bscr s l)) = Loop.cbn s /\ Loop.cbn (fst (before_handle_loop s l polled)) = Loop.cbn s /\
  Loop.cbn (run_idles scr s idl) = Loop.cbn s.
Proof.
  intros. destruct (before_sleep_loop_writes bscr l s) as (?&?&?&?&->), (before_handle_loop_writes l polled s) as (?&?&?&?&->).
  repeat split. apply cbc_run_idles.
Qed.

Example C01_nonvacuous : wf_tok (mkTok 3 7 2) /\ src_has_tok (SPing (mkGen 10 (mkInt true false) Level (Some (mkTok 3 7 0)) true)) (mkTok 3 8 0) = false.
Proof. split; [repeat split|reflexivity]. Qed.
