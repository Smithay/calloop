(* C10  Executor/StreamSource: no lost wake, results and items delivered exactly once. *)
From CV Require Import Base ConcExec StreamSrc.
From CVP Require Import ConcExec_proofs StreamSrc_proofs.
Open Scope N_scope.

(* For ANY number of tasks with ANY poll scripts, ANY program of schedule/dispatch on the loop thread, ANY number of waker
   threads with ANY wake programs, ANY batch limit and ANY schedule (one enqueue, notified swap/store, eventfd write/read,
   poll or try_recv per step): a queued runnable always has a wake-up on its way (readable eventfd, a sender between its
   enqueue and its ping, or the loop between its drain and the end of its dequeue loop - which ends with Empty or, at the
   batch limit, a self re-ping), and the notified flag is only set while the eventfd is readable, its setter is about to
   ping, or the loop is about to clear it. The #227 regression (clearing the flag after the dequeue loop) breaks this. *)
Theorem C10_no_lost_wake : forall b sc lops wp sched, einv (e_run b sc lops wp sched).
Proof. exact einv_run. Qed.
Theorem C10_step_preserves : forall s k, einv s -> einv (e_step s k).
Proof. exact einv_step. Qed.
(* futures are only polled, and their results only delivered, by steps of the loop thread: a waker thread's step leaves
   every task's poll count, delivered count and remaining script untouched *)
Theorem C10_polled_on_loop_thread_only : forall s i t, nth_error (ethr s) i = Some t ->
  forall j tk tk', nth_error (etasks s) j = Some tk -> nth_error (etasks (wt_step s i t)) j = Some tk' ->
  tk_polls tk' = tk_polls tk /\ tk_delivered tk' = tk_delivered tk /\ tk_script tk' = tk_script tk.
Proof. exact tasks_only_loop. Qed.
(* running a dequeued task polls it once; a completing poll marks it Done and delivers its output exactly once; a poll during
   which the task woke itself leaves it scheduled and has it sent again (by the loop thread, through Sender::send) *)
Theorem C10_result_once : forall l j t, nth_error l j = Some t ->
  match tk_script t with
  | 1 :: _ => exists t', nth_error (fst (fst (run_task l j))) j = Some t' /\ tk_state t' = TDone /\ tk_delivered t' = tk_delivered t + 1 /\ tk_polls t' = tk_polls t + 1
  | 2 :: _ => exists t', nth_error (fst (fst (run_task l j))) j = Some t' /\ tk_state t' = TSched /\ tk_delivered t' = tk_delivered t /\ tk_polls t' = tk_polls t + 1 /\ snd (run_task l j) = true
  | _ => exists t', nth_error (fst (fst (run_task l j))) j = Some t' /\ tk_state t' = TIdle /\ tk_delivered t' = tk_delivered t /\ tk_polls t' = tk_polls t + 1
  end.
Proof. exact run_task_delivers. Qed.

Example C10_nonvacuous :
  let s := e_run 2%nat [[0; 1]; [1]] [ESched 0%nat; ESched 1%nat; EDispatch; EDispatch] [[0%nat]] [0;0;0;0;0;0;0;0;0;0;0;1;1;1;1;0;0;0;0;0;0]%nat in
  map tk_delivered (etasks s) = [1; 1] /\ eq s = [].
Proof. vm_compute. split; reflexivity. Qed.
(* a task that wakes itself while it is polled is sent again by the loop thread and polled again in the same dequeue loop;
   afterwards the notified flag is clear or a ping is pending, so a later cross-thread wake still gets through *)
Example C10_selfwake_nonvacuous :
  let s := e_run 8%nat [[2; 0; 1]] [ESched 0%nat; EDispatch; EDispatch; EDispatch] [[0%nat]]
                 (repeat 0%nat 14 ++ [1; 1; 1; 1] ++ repeat 0%nat 10)%nat in
  map tk_polls (etasks s) = [3] /\ map tk_delivered (etasks s) = [1] /\ eq s = [].
Proof. vm_compute. repeat split; reflexivity. Qed.

(* STREAMSOURCE over ALL histories of an external producer's push / close and the loop's dispatches (coq/theories/StreamSrc.v: a ping
   source plus a poll_next loop; the stream stores the waker of a Pending poll, push and close wake a stored waker; new() pings once):
   every pushed item is delivered exactly once and in order (delivered ++ queued = pushed), None is delivered once, last, together with
   the removal, and whenever something is ready a wake-up is pending - so right after any dispatch nothing is left queued, and if the
   producer is gone the stream has ended. *)
Theorem C10_stream_exactly_once_in_order : forall ops, QINV (q_run ops).
Proof. exact QINV_run. Qed.
Theorem C10_stream_dispatch_leaves_nothing_queued : forall ops, let s := q_run (ops ++ [QDispatch]) in
  qq s = [] /\ items (qdelivered s) = qpushed s /\ (qclosed s = true -> qremoved s = true).
Proof. exact dispatch_drains. Qed.
Example C10_stream_nonvacuous :
  q_obs (q_run [QPush 1; QPush 2; QDispatch; QPush 3; QDispatch; QClose; QPush 4; QDispatch; QDispatch]) = ([Some 1; Some 2; Some 3; None], true).
Proof. reflexivity. Qed.
