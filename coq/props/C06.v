(* C06  Removed sources are gone for good; their tokens die; everything is released once. *)
From CV Require Import Base Token Env Loop.
From CVP Require Import Loop_frames Seq_lemmas C06_proofs C06_release C06_handles.
From CVP Require Import C15_intact.
Open Scope N_scope.

(* remove(): right afterwards the handle's token no longer resolves to a source *)
Theorem C06_token_dead_after_remove : forall s h, halted s = false -> lookup (exec_action s (ARemove h)) h = None.
Proof. exact lookup_after_remove. Qed.
(* a token that does not resolve: enable/disable/update return InvalidToken, remove is a no-op, and NOTHING else in the
   loop state changes - so it cannot affect a later source that reuses the slot *)
Theorem C06_dead_token_noop : forall s h, halted s = false -> lookup s h = None ->
  exec_action s (AEnable h) = emit s (op_line OP_ENABLE h RInvalid) /\
  exec_action s (ADisable h) = emit s (op_line OP_DISABLE h RInvalid) /\
  exec_action s (AUpdate h) = emit s (op_line OP_UPDATE h RInvalid) /\
  exec_action s (ARemove h) = emit s (op_line OP_REMOVE h ROk).
Proof. exact invalid_token_noop. Qed.
(* events still in the batch for a vacated (or re-used, hence re-versioned) slot are dropped without any callback *)
Theorem C06_stale_event_dropped : forall scr s ev,
  lc_lookup s (forget_sub_id (unpack (ev_key ev))) = None -> process_event scr s ev = (s, true).
Proof.
  intros scr s ev H. unfold process_event, lc_lookup in *.
  destruct (slot_get (slots s) _) as [sl|]; [|reflexivity]. rewrite H. reflexivity.
Qed.
(* slot reuse changes the generation: the old token differs from the new one (for fewer than 65536 reuses) *)
Theorem C06_reuse_bumps_generation : forall t, wf_tok t ->
  increment_version t = mkTok (t_id t) ((t_ver t + 1) mod U16) 0 /\ same_source_as (increment_version t) t = false.
Proof.
  intros t H. destruct (CVP.Token_proofs.increment_version_spec t H) as [E _]. split; [exact E|].
  rewrite E. unfold same_source_as; cbn. rewrite N.eqb_refl. cbn.
  destruct H as (_ & Hv & _). apply N.eqb_neq. unfold U16 in *.
  destruct (N.eq_dec (t_ver t) 65535) as [->|Hne]; [discriminate|]. rewrite N.mod_small by lia. lia.
Qed.
(* at the end of an event's processing nothing is marked running: the in-flight clone is released *)
Theorem C06_released_after_processing : forall s o, running (end_processing s o) = None.
Proof. intros s o. apply running_end_processing. Qed.

(* WHOLE HISTORIES. Between any two states of any scenario (any commands, any scripted callbacks, dispatches, idles) every
   slot only moves forward: a later generation, or the same generation with the same token and the same source or none
   (`sstep`); slots stay well formed (token = (index, generation mod 2^16, 0)). Hence: a token of the current or a past
   generation of its slot (`issued`) that does not resolve to a source now never resolves again, as long as the slot has
   been reused fewer than 65536 times (`gens_small`, the property's own bound). lc_lookup is the generation-checked lookup
   used for every event and every enable/disable/update/remove. *)
Theorem C06_slots_only_move_forward : forall scr bscr cmds s, sstep (slots s) (slots (fold_left (exec_cmd scr bscr) cmds s)).
Proof. intros scr bscr cmds s. apply exec_cmds_sstep. Qed.
Theorem C06_token_dead_forever : forall scr bscr cmds1 cmds2 t,
  gens_small (slots (run scr bscr (cmds1 ++ cmds2))) -> issued (slots (run scr bscr cmds1)) t ->
  lc_lookup (run scr bscr cmds1) t = None -> lc_lookup (run scr bscr (cmds1 ++ cmds2)) t = None.
Proof. exact token_dead_forever_run. Qed.
Theorem C06_dead_token_dead_handle : forall s h t, toks s h = Some t -> lc_lookup s t = None -> lookup s h = None.
Proof. exact lookup_none_of_dead. Qed.

(* NEVER A LATER SOURCE, whole histories. In every state of every scenario each handle's token is a token of its slot's current
   or a past generation, and wherever it still resolves it finds the handle's own object or an emptied slot (`HOBJ`). So the
   lookup behind enable / disable / update / remove of ANY handle ever issued - stale or not - can only yield that handle's own
   source: it can never act on the source that re-used the slot. (`TKS`: slots move forward and each handle's token is either
   unchanged or freshly consistent; proved for every function of the model like `sstep`.) *)
Theorem C06_handle_never_resolves_to_another_source : forall scr bscr cmds h t et o,
  gens_small (slots (run scr bscr cmds)) -> lookup (run scr bscr cmds) h = Some (t, et, o) -> o = h.
Proof. exact handle_resolves_only_to_own_object. Qed.
Theorem C06_handles_consistent_in_every_reachable_state : forall scr bscr cmds,
  gens_small (slots (run scr bscr cmds)) -> HOBJ (run scr bscr cmds).
Proof. exact HOBJ_run. Qed.
(* met by a real history: handle 1 removed, handle 2 inserted into the re-used slot 0: handle 1's token (0,0) no longer resolves,
   handle 2's token (0,1) resolves to object 2 *)
Example C06_handles_nonvacuous :
  let g := mkGen 10 (mkInt true false) Level None false in
  let s := run (fun _ => []) (fun _ => []) [CAct (ANewPing 1 10); CAct (AInsert 1 (SPing g)); CAct (ARemove 1);
             CAct (ANewPing 2 11); CAct (AInsert 2 (SPing (mkGen 11 (mkInt true false) Level None false)))] in
  toks s 1 = Some (mkTok 0 0 0) /\ toks s 2 = Some (mkTok 0 1 0) /\ lookup s 1 = None /\
  lookup s 2 = Some (mkTok 0 1 0, mkTok 0 1 0, 2).
Proof. vm_compute. repeat split. Qed.

(* RELEASE, whole histories. `objs s o = Some ob` is "the source and callback of object o have not been dropped yet" (dropping
   is `drop_obj`, which prints the DROP line the correspondence check compares with the implementation's drop counters);
   `o_ext ob` is "the user holds a Dispatcher clone of it". After any scenario - any commands, scripted callbacks that
   remove themselves or others, post-actions, dispatches, idles - at every point between two top-level operations, i.e. in
   particular once a dispatch has returned: every object not yet dropped is in a live slot or is kept alive by the user's own
   Dispatcher, and nothing is parked on the deferred-drop list. So a removed source nobody else holds has been released by
   the end of the dispatch in progress. *)
Theorem C06_released_by_end_of_dispatch : forall scr bscr cmds o ob,
  let s := run scr bscr cmds in
  gens_small (slots s) -> halted s = false -> objs s o = Some ob -> in_slots (slots s) o = false -> o_ext ob = true.
Proof. exact released_after_any_history. Qed.
Theorem C06_no_deferred_drop_outlives_dispatch : forall scr bscr cmds,
  let s := run scr bscr cmds in gens_small (slots s) -> halted s = false -> zombies s = [] /\ running s = None.
Proof.
  cbv zeta. intros scr bscr cmds G Hh. destruct (run_FULL scr bscr cmds G) as [X|(_ & Hr & _ & Z)]; [congruence|]. split; assumption.
Qed.

(* the release theorems are met by real histories: a ping source that removes itself inside its own callback. With the
   user's Dispatcher clone dropped beforehand the object is still stored before the dispatch and gone (dropped, DROP line
   printed once) when the dispatch returns; with the clone kept it is still stored, out of every slot, and marked external *)
Example C06_release_nonvacuous :
  let g := mkGen 10 (mkInt true false) Level None false in
  let scr : scripts := fun h => if N.eqb h 1 then [mkScript [ARemove 1] 0 0%Z] else [] in
  let pre := [CAct (ANewPing 1 10); CAct (AInsert 1 (SPing g)); CAct (ADropDisp 1); CAct (APing 1)] in
  let keep := [CAct (ANewPing 1 10); CAct (AInsert 1 (SPing g)); CAct (APing 1)] in
  let a := run scr (fun _ => []) pre in
  let b := run scr (fun _ => []) (pre ++ [CDispatch 0%Z []]) in
  let c := run scr (fun _ => []) (keep ++ [CDispatch 0%Z []]) in
  (halted a = false /\ objs a 1 <> None /\ in_slots (slots a) 1 = true) /\
  (halted b = false /\ cbn b 1 = 1%nat /\ objs b 1 = None /\ in_slots (slots b) 1 = false /\
   filter (fun l => match l with L k _ => N.eqb k 15 end) (trace_of b) = [L 15 [1%Z]]) /\
  (halted c = false /\ in_slots (slots c) 1 = false /\ option_map o_ext (objs c 1) = Some true).
Proof. vm_compute. repeat split; discriminate. Qed.

Example C06_nonvacuous :
  let s := run (fun _ => []) (fun _ => []) [CAct (ANewPing 1 10); CAct (AInsert 1 (SPing (mkGen 10 (mkInt true false) Level None false)))] in
  halted s = false /\ lookup s 1 <> None /\ lookup (exec_action s (ARemove 1)) 1 = None.
Proof. vm_compute. repeat split; discriminate. Qed.
(* the premises of C06_token_dead_forever are met by a real history: insert, remove, and a second insert that reuses the slot *)
Example C06_forever_nonvacuous :
  let g := mkGen 10 (mkInt true false) Level None false in
  let c1 := [CAct (ANewPing 1 10); CAct (AInsert 1 (SPing g)); CAct (ARemove 1)] in
  let c2 := [CAct (ANewPing 2 11); CAct (AInsert 2 (SPing (mkGen 11 (mkInt true false) Level None false)))] in
  let t := mkTok 0 0 0 in
  issued (slots (run (fun _ => []) (fun _ => []) c1)) t /\ lc_lookup (run (fun _ => []) (fun _ => []) c1) t = None /\
  gens_small (slots (run (fun _ => []) (fun _ => []) (c1 ++ c2))) /\
  lc_lookup (run (fun _ => []) (fun _ => []) (c1 ++ c2)) (mkTok 0 1 0) = Some 2.
Proof.
  cbv zeta. split; [|split; [|split]].
  - eexists. split; [vm_compute; reflexivity|vm_compute; discriminate].
  - vm_compute. reflexivity.
  - intros i sl H. vm_compute in H. destruct i as [|i]; [injection H as <-; vm_compute; reflexivity|destruct i; discriminate].
  - vm_compute. reflexivity.
Qed.

(* a slot is handed out only when it is vacant: the slot an insertion takes is never one that holds a source, and every occupied slot - its
   token, its generation and its source - is left exactly as it was. A finished removal can therefore not reach a later source through the
   slot allocator (the vacated slot is found again by a scan of the list itself, there is no second record of vacant slots to go stale). *)
Theorem C06_insertion_never_takes_an_occupied_slot : forall l i l', vacant_entry l = Some (i, l') ->
  forall j sl, nth_error l j = Some sl -> s_obj sl <> None -> nth_error l' j = Some sl /\ j <> i.
Proof. exact vacant_entry_keeps_occupied. Qed.
Print Assumptions C06_insertion_never_takes_an_occupied_slot.
