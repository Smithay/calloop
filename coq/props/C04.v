(* C04  Channel: exactly-once in-order delivery, then exactly one Closed. *)
From CV Require Import Base ConcChannel.
From CVP Require Import ConcChannel_proofs.
From CVP Require Import C04_quiet.
Open Scope N_scope.

(* For channel() and sync_channel(n >= 1) used through send / try_send / the blocking SyncSender::send, ANY number of sender threads with ANY well-formed
   programs of send/blocking send/clone/drop, ANY number of dispatches and ANY schedule (one mpsc enqueue/try_send, sender-count change,
   eventfd write, poll, drain or try_recv per step), every reachable state satisfies ccinv:
   - delivered ++ queued = sent           (each sent message is delivered at most once, in send order, none invented)
   - a non-empty queue or a pending disconnect always has a wake-up on its way (readable eventfd, a sender about to ping,
     or the loop inside its drain loop, which ends with Empty/Closed or a self re-ping) - whatever the batch limit
   - Closed is delivered at most once, only with no sender left and an empty queue, and removes the source. *)
Theorem C04_invariant : forall b progs nd sched, progs <> [] -> Forall (fun p => wf_cprog 1 p = true) progs ->
  ccinv (cc_run b progs nd sched).
Proof. exact ccinv_run. Qed.
Theorem C04_step_preserves : forall s k, ccinv s -> ccinv (cc_step s k).
Proof. exact ccinv_step. Qed.
(* a pending wake-up that is a readable eventfd makes the next poll start a drain *)
Theorem C04_wake_leads_to_drain : forall s d, creg s = true -> 2 <= cctr s -> cloop s = mkCL (S d) CLIdle ->
  cl_stage (cloop (cl_step s)) = CLDrain.
Proof. exact cc_poll_progress. Qed.

(* KNOWN FINDING F9 (outside this model, which covers send on channel() and try_send / blocking send on sync_channel(n>=1)):
   SyncSender::send on sync_channel(0) pings in try_send BEFORE it starts offering the message; see DESIGN.md section 5. *)

Example C04_nonvacuous :
  let s := cc_run None [[CSend 7; CSend 8; CDropS]] 3 [1; 1; 1; 0; 0; 0; 1; 1; 1; 0; 0; 0; 0; 0; 0; 0]%nat in
  cdelivered s = [7; 8] /\ cclosed s = 1 /\ creg s = false.
Proof. vm_compute. repeat split. Qed.
(* a blocking send on a full sync_channel(1): its try_send fails and pings, the loop drains and sees Empty before the blocking
   mpsc send starts; the message is enqueued afterwards and the final ping of send() gets it delivered *)
Example C04_blocking_nonvacuous :
  let s := cc_run (Some 1) [[CSend 7; CSendB 8]] 4 ([1; 1; 1; 1] ++ [0; 0; 0; 0] ++ [1; 1] ++ repeat 0 8)%nat in
  cdelivered s = [7; 8] /\ cq s = [] /\ csent s = [7; 8].
Proof. vm_compute. repeat split. Qed.

(* Nothing is left behind: in every reachable state in which no wake-up is on its way any more (eventfd not readable, no sender
   between its enqueue and its ping, loop not inside a drain) - or the source is gone - everything that was sent has been delivered, in
   order, and if no sender is left the one Closed has been delivered and the source removed. With C04_invariant ("a non-empty queue
   always has a wake-up on its way") this is the no-loss half of exactly-once for whole schedules. *)
Theorem C04_quiescent_means_all_delivered : forall b progs nd sched, progs <> [] -> Forall (fun p => wf_cprog 1 p = true) progs ->
  cc_quiet (cc_run b progs nd sched) ->
  let s := cc_run b progs nd sched in
  cdelivered s = csent s /\ cq s = [] /\ (csenders s = 0 -> cclosed s = 1 /\ creg s = false).
Proof. exact quiescent_run_delivered_everything. Qed.
Example C04_quiet_nonvacuous :
  let s := cc_run None [[CSend 7; CSend 8]] 3 [1; 1; 1; 0; 0; 0; 1; 1; 1; 0; 0; 0; 0; 0; 0; 0]%nat in cc_quiet s /\ creg s = true /\ cdelivered s = [7; 8].
Proof. exact quiet_somewhere_open. Qed.
Print Assumptions C04_quiescent_means_all_delivered.
