From CV Require Import Base Consts ConcExec.
Open Scope N_scope.

Definition is_w2 (t : wthread) : N := match wt_stage t with W2 => 1 | _ => 0 end.
Definition is_w3 (t : wthread) : N := match wt_stage t with W3 => 1 | _ => 0 end.
Fixpoint nw2 (l : list wthread) : N := match l with [] => 0 | t :: r => is_w2 t + nw2 r end.
Fixpoint nw3 (l : list wthread) : N := match l with [] => 0 | t :: r => is_w3 t + nw3 r end.
Definition l2 (s : est) : N := match et_stage (eloop s) with ES2 | ELS2 _ => 1 | _ => 0 end.
Definition l3 (s : est) : N := match et_stage (eloop s) with ES3 | ER | ELS3 _ => 1 | _ => 0 end.
Definition in_drain (s : est) : N := match et_stage (eloop s) with EF | EL _ | ER | ELS1 _ _ | ELS2 _ | ELS3 _ => 1 | _ => 0 end.
Definition at_store (s : est) : N := match et_stage (eloop s) with EF => 1 | _ => 0 end.

(* no lost wake: a queued runnable always has a wake-up on its way - the eventfd is readable, or some sender is between its
   enqueue and its ping, or the loop is between its drain and the end of its dequeue loop; and the `notified` flag is only
   set while the eventfd is readable, its setter is about to ping, or the loop is about to clear it *)
Definition einv (s : est) : Prop :=
  N.even (ectr s) = true /\
  (eq s <> [] -> 2 <= ectr s \/ 1 <= nw2 (ethr s) + l2 s \/ 1 <= nw3 (ethr s) + l3 s \/ 1 <= in_drain s) /\
  (enotified s = true -> 2 <= ectr s \/ 1 <= nw3 (ethr s) + l3 s \/ 1 <= at_store s) /\
  (et_stage (eloop s) = ED -> 2 <= ectr s).

Lemma nw2_upd l : forall i t t', nth_error l i = Some t -> nw2 (upd_wt l i t') + is_w2 t = nw2 l + is_w2 t'.
Proof. induction l as [|x r IH]; intros [|i] t t' H; cbn in *; try discriminate; [injection H as ->; lia|specialize (IH i t t' H); lia]. Qed.
Lemma nw3_upd l : forall i t t', nth_error l i = Some t -> nw3 (upd_wt l i t') + is_w3 t = nw3 l + is_w3 t'.
Proof. induction l as [|x r IH]; intros [|i] t t' H; cbn in *; try discriminate; [injection H as ->; lia|specialize (IH i t t' H); lia]. Qed.

Ltac ecbn := cbn [eq enotified ectr etasks eloop ethr ebatch elog e_set et_stage et_ops wt_stage wt_ops] in *.
Lemma even_add2 n : N.even n = true -> N.even (n + INCREMENT_PING) = true.
Proof. intros H. unfold INCREMENT_PING. rewrite N.even_add, H. reflexivity. Qed.
Lemma even_pos n : N.even n = true -> 0 < n -> 2 <= n.
Proof. intros H Hp. destruct (N.eq_dec n 1) as [->|]; [discriminate|lia]. Qed.

Lemma app_nonnil {A} (l : list A) x : l ++ [x] <> [].
Proof. destruct l; discriminate. Qed.

Lemma at_store_in_drain s : at_store s <= in_drain s.
Proof. unfold at_store, in_drain. destruct (et_stage (eloop s)); lia. Qed.

(* computes the stage counters of the loop thread on the stages at hand; what is left is arithmetic over nw2 / nw3 *)
Ltac ecount := unfold l2, l3, in_drain, at_store, send_enq, e_set, after_task; cbn [eloop et_stage ethr]; lia.

(* The three effects of Sender::send, whoever runs them (`lp`, `th`: the loop thread and the wakers afterwards).
   Enqueue: the sender itself is now the wake-up on its way (it stands before its swap). *)
Lemma einv_enq s who j lp th : einv s ->
  1 <= nw2 th + l2 (send_enq s who j lp th) ->
  nw3 (ethr s) + l3 s <= nw3 th + l3 (send_enq s who j lp th) -> at_store s <= at_store (send_enq s who j lp th) ->
  (et_stage lp = ED -> et_stage (eloop s) = ED) ->
  einv (send_enq s who j lp th).
Proof.
  intros (X0 & X1 & X2 & X5) H2 H3 Hs Hd. unfold einv. split; [exact X0|split; [|split]].
  - intros _. right; left. exact H2.
  - intros Hn. destruct (X2 Hn) as [H|[H|H]]; [left; exact H|right; left|right; right]; cbn [ethr send_enq e_set]; lia.
  - intros H. apply X5, Hd, H.
Qed.

(* Swap: a sender that finds `notified` set leaves the wake-up to whoever set it (the third clause of einv says that one is
   still on its way); one that finds it clear goes on to ping. *)
Lemma einv_swap s who lp1 lp2 th1 th2 : einv s ->
  1 <= nw3 th1 + l3 (e_set s (eq s) true (ectr s) (etasks s) lp1 th1 []) ->
  nw3 (ethr s) + l3 s <= nw3 th2 + l3 (e_set s (eq s) true (ectr s) (etasks s) lp2 th2 []) ->
  at_store s <= at_store (e_set s (eq s) true (ectr s) (etasks s) lp2 th2 []) ->
  (et_stage lp1 = ED \/ et_stage lp2 = ED -> et_stage (eloop s) = ED) ->
  einv (send_swap s who lp1 lp2 th1 th2).
Proof.
  intros (X0 & X1 & X2 & X5) H1 H3 Hs Hd. unfold send_swap. destruct (enotified s) eqn:En.
  - pose proof (at_store_in_drain (e_set s (eq s) true (ectr s) (etasks s) lp2 th2 [])) as AD.
    assert (W : 2 <= ectr s \/ 1 <= nw3 th2 + l3 (e_set s (eq s) true (ectr s) (etasks s) lp2 th2 []) \/
                1 <= at_store (e_set s (eq s) true (ectr s) (etasks s) lp2 th2 [])).
    { destruct (X2 eq_refl) as [H|[H|H]]; [left; exact H|right; left; lia|right; right; lia]. }
    split; [exact X0|split; [|split]].
    + intros _. destruct W as [H|[H|H]]; [left; exact H|right; right; left; exact H|right; right; right; exact (N.le_trans _ _ _ H AD)].
    + intros _. exact W.
    + intros H. apply X5, Hd. right. exact H.
  - split; [exact X0|split; [|split]].
    + intros _. right; right; left. exact H1.
    + intros _. right; left. exact H1.
    + intros H. apply X5, Hd. left. exact H.
Qed.

(* Ping: the eventfd is readable. *)
Lemma einv_ping s who lp th : einv s -> einv (send_ping s who lp th).
Proof.
  intros (X0 & _). unfold einv, send_ping, e_set, INCREMENT_PING. cbn [eq enotified ectr eloop].
  split; [apply even_add2; exact X0|split; [|split]]; intros _; [left|left|]; lia.
Qed.

(* a step that leaves the queue, the flag, the counter and the loop thread alone, and no waker in or out of a send *)
Lemma einv_same s tk th lg : einv s -> nw2 th = nw2 (ethr s) -> nw3 th = nw3 (ethr s) ->
  einv (e_set s (eq s) (enotified s) (ectr s) tk (eloop s) th lg).
Proof. unfold einv, l2, l3, in_drain, at_store, e_set. cbn [eq enotified ectr eloop ethr]. intros H -> ->. exact H. Qed.

Lemma einv_thread_step s i t : einv s -> nth_error (ethr s) i = Some t -> einv (wt_step s i t).
Proof.
  intros Hinv En.
  pose proof (nw2_upd (ethr s) i t) as N2. pose proof (nw3_upd (ethr s) i t) as N3.
  unfold wt_step. destruct t as [ops stg]. cbn [wt_stage wt_ops]. unfold is_w2, is_w3 in N2, N3.
  destruct stg as [|j| |]; cbn [wt_stage] in N2, N3.
  - destruct ops as [|j r]; [exact Hinv|].
    destruct (task_idle (etasks s) j).
    + specialize (N2 (mkWT r (W1 j)) En). specialize (N3 (mkWT r (W1 j)) En). cbn in N2, N3. apply einv_same; [exact Hinv|lia|lia].
    + specialize (N2 (mkWT r WIdle) En). specialize (N3 (mkWT r WIdle) En). cbn in N2, N3. apply einv_same; [exact Hinv|lia|lia].
  - specialize (N2 (mkWT ops W2) En). specialize (N3 (mkWT ops W2) En). cbn in N2, N3.
    apply einv_enq; [exact Hinv|ecount..|trivial].
  - specialize (N2 (mkWT ops WIdle) En). pose proof (N3 (mkWT ops W3) En) as N3'. specialize (N3 (mkWT ops WIdle) En). cbn in N2, N3, N3'.
    apply einv_swap; [exact Hinv|ecount..|intros [H|H]; exact H].
  - apply einv_ping. exact Hinv.
Qed.

Lemma einv_loop_step s : einv s -> einv (eloop_step s).
Proof.
  intros Hinv. pose proof Hinv as (X0 & X1 & X2 & X5).
  unfold eloop_step. destruct s as [q n c tk [ops stg] th b lg]. cbn [eq enotified ectr etasks eloop ethr ebatch elog et_stage et_ops].
  unfold l2, l3, in_drain, at_store in X1, X2, X5. cbn [eq enotified ectr eloop ethr et_stage] in X0, X1, X2, X5.
  destruct stg as [|j| | | | |[|k]| |j k|k|k].
  - destruct ops as [|[j|] r]; [exact Hinv| |].
    + (* schedule: marks the task, then the first effect of a send *)
      apply einv_enq; [exact Hinv|ecount..|discriminate].
    + (* poll *)
      destruct (N.ltb_spec 0 c) as [Hc|_]; [|exact Hinv]. unfold einv, e_set. cbn [eq enotified ectr eloop].
      split; [exact X0|split; [|split]].
      * intros Hq. destruct (X1 Hq) as [H|[H|[H|H]]]; [left; exact H|right; left|right; right; left|]; ecount.
      * intros Hn. destruct (X2 Hn) as [H|[H|H]]; [left; exact H|right; left|]; ecount.
      * intros _. apply even_pos; assumption.
  - apply einv_enq; [exact Hinv|ecount..|discriminate].
  - apply einv_swap; [exact Hinv|ecount..|intros [H|H]; discriminate H].
  - apply einv_ping. exact Hinv.
  - (* the drain empties the counter; from here to the end of the dequeue loop the loop thread itself is the wake-up *)
    specialize (X5 eq_refl). destruct (N.leb_spec 2 c) as [_|Hc]; [|lia]. unfold einv, e_set. cbn [eq enotified ectr eloop].
    split; [reflexivity|split; [|split]]; [intros _; right; right; right; ecount|intros _; right; right; ecount|discriminate].
  - (* the store clears the flag *)
    unfold einv, e_set. cbn [eq enotified ectr eloop].
    split; [exact X0|split; [|split]]; [intros _; right; right; right; ecount|discriminate..].
  - (* the batch limit is reached: the loop pings itself *)
    unfold einv, e_set. cbn [eq enotified ectr eloop].
    split; [exact X0|split; [|split]]; [intros _; right; right; right; ecount|intros _; right; left; ecount|discriminate].
  - destruct q as [|j q'].
    + (* the queue is empty: nothing is owed *)
      unfold einv, e_set. cbn [eq enotified ectr eloop].
      split; [exact X0|split; [|split]]; [intros H; exfalso; apply H; reflexivity| |discriminate].
      intros Hn. destruct (X2 Hn) as [H|[H|H]]; [left; exact H|right; left|]; ecount.
    + destruct (run_task tk j) as [[tk' evs] again]. unfold einv, e_set. cbn [eq enotified ectr eloop].
      split; [exact X0|split; [|split]].
      * intros _. right; right; right. destruct again; [|destruct k]; ecount.
      * intros Hn. destruct (X2 Hn) as [H|[H|H]]; [left; exact H|right; left|]; ecount.
      * destruct again; [|destruct k]; discriminate.
  - apply einv_ping. exact Hinv.
  - apply einv_enq; [exact Hinv|ecount..|discriminate].
  - apply einv_swap; [exact Hinv|ecount..|intros [H|H]; [|destruct k]; discriminate H].
  - apply einv_ping. exact Hinv.
Qed.

Lemma einv_step s k : einv s -> einv (e_step s k).
Proof.
  intros H. destruct k as [|i]; cbn [e_step]; [apply einv_loop_step; exact H|].
  destruct (nth_error (ethr s) i) as [t|] eqn:En; [|exact H]. apply einv_thread_step; assumption.
Qed.

Lemma nw2_init progs : nw2 (map (fun p => mkWT p WIdle) progs) = 0.
Proof. induction progs as [|p r IH]; cbn; [reflexivity|exact IH]. Qed.
Lemma nw3_init progs : nw3 (map (fun p => mkWT p WIdle) progs) = 0.
Proof. induction progs as [|p r IH]; cbn; [reflexivity|exact IH]. Qed.
Lemma einv_init b sc lops wp : einv (e_init b sc lops wp).
Proof.
  unfold einv, e_init, l2, l3, in_drain, at_store. ecbn. split; [reflexivity|]. split; [intros H; exfalso; apply H; reflexivity|].
  split; intros H; discriminate.
Qed.
Lemma einv_run b sc lops wp sched : einv (e_run b sc lops wp sched).
Proof.
  unfold e_run. generalize (einv_init b sc lops wp). generalize (e_init b sc lops wp).
  induction sched as [|k r IH]; intros s Hs; cbn; [exact Hs|]. apply IH. apply einv_step. exact Hs.
Qed.

(* tasks are only ever polled (and their results delivered) by a step of the loop thread *)
Lemma tasks_only_loop s i t : nth_error (ethr s) i = Some t ->
  forall j tk tk', nth_error (etasks s) j = Some tk -> nth_error (etasks (wt_step s i t)) j = Some tk' ->
  tk_polls tk' = tk_polls tk /\ tk_delivered tk' = tk_delivered tk /\ tk_script tk' = tk_script tk.
Proof.
  intros En j tk tk' H H'. unfold wt_step, send_enq, send_swap, send_ping in H'. destruct (wt_stage t); [destruct (wt_ops t) as [|j0 r]|..]; ecbn.
  - rewrite H in H'. injection H' as <-. auto.
  - destruct (task_idle (etasks s) j0); ecbn; [|rewrite H in H'; injection H' as <-; auto].
    unfold set_task_state in H'. destruct (nth_error (etasks s) j0) as [t0|] eqn:E0; [|rewrite H in H'; injection H' as <-; auto].
    destruct (Nat.eq_dec j j0) as [->|Hne].
    + rewrite H in E0. injection E0 as <-.
      assert (L : (j0 < length (etasks s))%nat) by (apply nth_error_Some; congruence).
      clear - H' L. revert j0 H' L. induction (etasks s) as [|x r IH]; intros [|j0] H' L; cbn in *; try lia; [injection H' as <-; auto|apply (IH j0); [exact H'|lia]].
    + assert (E : nth_error (upd_task (etasks s) j0 (mkTask TSched (tk_script t0) (tk_polls t0) (tk_delivered t0))) j = nth_error (etasks s) j).
      { clear - Hne. revert j j0 Hne. induction (etasks s) as [|x r IH]; intros [|j] [|j0] Hne; cbn; auto; try congruence. }
      rewrite E, H in H'. injection H' as <-. auto.
  - rewrite H in H'. injection H' as <-. auto.
  - destruct (enotified s); ecbn; rewrite H in H'; injection H' as <-; auto.
  - rewrite H in H'. injection H' as <-. auto.
Qed.

(* a completing poll delivers the output exactly once: the task is Done, its delivered counter is incremented by one *)
Lemma run_task_delivers l j t : nth_error l j = Some t ->
  match tk_script t with
  | 1 :: _ => exists t', nth_error (fst (fst (run_task l j))) j = Some t' /\ tk_state t' = TDone /\ tk_delivered t' = tk_delivered t + 1 /\ tk_polls t' = tk_polls t + 1
  | 2 :: _ => exists t', nth_error (fst (fst (run_task l j))) j = Some t' /\ tk_state t' = TSched /\ tk_delivered t' = tk_delivered t /\ tk_polls t' = tk_polls t + 1 /\ snd (run_task l j) = true
  | _ => exists t', nth_error (fst (fst (run_task l j))) j = Some t' /\ tk_state t' = TIdle /\ tk_delivered t' = tk_delivered t /\ tk_polls t' = tk_polls t + 1
  end.
Proof.
  intros H. unfold run_task. rewrite H.
  assert (L : (j < length l)%nat) by (apply nth_error_Some; congruence).
  assert (U : forall x, nth_error (upd_task l j x) j = Some x).
  { clear - L. revert j L. induction l as [|y r IH]; intros [|j] L x; cbn in *; try lia; [reflexivity|apply IH; lia]. }
  destruct (tk_script t) as [|[|[[| |]|[| |]|]] r]; cbn [fst snd]; eexists; (split; [apply U|cbn; auto]).
Qed.
