From CV Require Import Base Token PostAction Env Loop.
Open Scope N_scope.

(* what can make the processing of one event fail (= make dispatch() return Err): a panic, the source's own event processing reporting an
   error, or the (re/un)registration call a post action asks for failing IN THE SOURCE. The post action is applied to the object the loop
   already holds (`o`), never through a new look-up of its token: what a callback did to the slot meanwhile cannot make it fail. *)
Definition fails_with_cause (scr : scripts) (s : st) (ev : pevent) (s' : st) : Prop :=
  halted s' = true \/
  exists sl o, slot_get (slots s) (forget_sub_id (unpack (ev_key ev))) = Some sl /\ s_obj sl = Some o /\
    let reg := forget_sub_id (unpack (ev_key ev)) in
    (snd (obj_process scr (set_running s (Some (o, reg))) o ev) = None \/
     exists s4, (fst (fst (disp_reregister s4 o reg)) <> ROk \/ fst (fst (disp_unregister s4 o reg)) <> ROk)).

Lemma apply_post_false s o reg r : fst (apply_post s o reg r) = false ->
  fst (fst (disp_reregister s o reg)) <> ROk \/ fst (fst (disp_unregister s o reg)) <> ROk.
Proof.
  destruct r; cbn [apply_post]; try discriminate.
  - destruct (disp_reregister s o reg) as [[rs b] sx]. cbn. destruct rs; try discriminate; intros _; left; discriminate.
  - destruct (disp_unregister s o reg) as [[rs b] sx]. cbn. destruct rs; try discriminate; intros _; right; discriminate.
Qed.

Lemma pair_fst {A B} (a a' : A) (b b' : B) : (a, b) = (a', b') -> a = a' /\ b = b'.
Proof. intros H. split; [exact (f_equal fst H)|exact (f_equal snd H)]. Qed.
Lemma process_event_fails_only_with_cause scr s ev s' : process_event scr s ev = (s', false) -> fails_with_cause scr s ev s'.
Proof.
  unfold process_event, fails_with_cause.
  set (reg := forget_sub_id (unpack (ev_key ev))).
  destruct (slot_get (slots s) reg) as [sl|] eqn:Es; [|discriminate].
  destruct (s_obj sl) as [o|] eqn:Eo; [|discriminate].
  destruct (obj_process scr (set_running s (Some (o, reg))) o ev) as [s2 ret] eqn:Ep.
  destruct (halted s2) eqn:H2.
  { intros H. apply pair_fst in H. destruct H as [<- _]. left. exact H2. }
  destruct ret as [r|].
  - set (s4 := set_pending (set_running s2 None) Continue).
    set (r' := match r with Continue => pending (set_running s2 None) | _ => r end).
    pose proof (apply_post_false s4 o reg r') as AF.
    destruct (apply_post s4 o reg r') as [ok s5] eqn:Ea.
    destruct (halted s5) eqn:H5.
    { intros H. apply pair_fst in H. destruct H as [<- _]. left. exact H5. }
    intros H. apply pair_fst in H. destruct H as [_ Hok].
    right. exists sl, o. split; [reflexivity|split; [exact Eo|]]. cbv zeta. right.
    exists s4. apply AF. cbn [fst]. exact Hok.
  - intros _. right. exists sl, o. split; [reflexivity|split; [exact Eo|]]. cbv zeta. left. fold reg. rewrite Ep. reflexivity.
Qed.

(* over a whole batch: process_events stops with `false` only at an event whose processing failed with a cause *)
Lemma process_events_fail_only_with_cause scr : forall evs s s', process_events scr s evs = (s', false) ->
  exists s0 ev, In ev evs /\ fails_with_cause scr s0 ev s'.
Proof.
  induction evs as [|ev r IH]; intros s s' H; cbn [process_events] in H; [discriminate|].
  destruct (process_event scr s ev) as [s1 ok] eqn:E. destruct ok.
  - destruct (IH s1 s' H) as (s0 & ev' & Hin & Hc). exists s0, ev'. split; [right; exact Hin|exact Hc].
  - apply pair_fst in H. destruct H as [<- _]. exists s, ev. split; [left; reflexivity|exact (process_event_fails_only_with_cause scr s ev s1 E)].
Qed.
