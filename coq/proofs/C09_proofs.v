(* C09: no deferred or returned post-action leaks to another source or to a later event. *)
From CV Require Import Base Token PostAction Env Loop.
From CVP Require Import Loop_frames Loop_walk.
Open Scope N_scope.

(* between two events (and between two commands) nothing is being processed and no action is pending *)
Definition quiet (s : st) : Prop := running s = None /\ pending s = Continue.

Lemma process_event_quiet scr s ev :
  quiet s -> halted (fst (process_event scr s ev)) = false -> quiet (fst (process_event scr s ev)).
Proof.
  intros [Hr Hp]. destruct (slot_get (slots s) (forget_sub_id (unpack (ev_key ev)))) as [sl|] eqn:E1; [|unfold process_event; rewrite E1; split; assumption].
  destruct (s_obj sl) as [o|] eqn:E2; [|unfold process_event; rewrite E1, E2; split; assumption].
  rewrite (process_event_phases scr s ev sl o E1 E2). cbv zeta.
  destruct (obj_process scr _ o ev) as [s2 ret]. destruct (halted s2) eqn:H2; [cbn; congruence|].
  (* the post phase starts from Continue and apply_post does not write pending *)
  assert (P5 : pending (snd (post_phase s2 o (forget_sub_id (unpack (ev_key ev))) ret)) = Continue)
    by (unfold post_phase; destruct ret as [r|]; [rewrite pending_apply_post|]; reflexivity).
  destruct (post_phase s2 o _ ret) as [ok s5]. cbn [snd] in P5. destruct (halted s5) eqn:H5; [cbn; congruence|]. intros _.
  cbn [fst]. split; [apply running_end_processing|]. rewrite pending_end_processing.
  destruct (slot_vacant_for s5 _); [rewrite pending_disp_unregister|]; exact P5.
Qed.

Lemma dstep_quiet ok scr s s' : dstep ok scr s s' -> halted s = true \/ quiet s -> halted s' = true \/ quiet s'.
Proof.
  intros D C. destruct D as [s ev Hh| | | | | | | |]; try exact C.
  - destruct C as [Hc|Q]; [congruence|].
    destruct (halted (fst (process_event scr s ev))) eqn:H'; [left; reflexivity|right; apply process_event_quiet; assumption].
  - destruct C as [Hc|[Qr Qp]]; [left; rewrite halted_exec_action_stuck; exact Hc|].
    right. split; [rewrite running_exec_action; exact Qr|rewrite pending_exec_action; assumption].
  - left. reflexivity.
Qed.
Lemma exec_cmds_quiet scr bscr cmds : forall s,
  quiet s -> halted (fold_left (exec_cmd scr bscr) cmds s) = false -> quiet (fold_left (exec_cmd scr bscr) cmds s).
Proof.
  intros s Q H.
  assert (C : halted s = true \/ quiet s -> halted (fold_left (exec_cmd scr bscr) cmds s) = true \/ quiet (fold_left (exec_cmd scr bscr) cmds s)).
  { apply (star_incl (fun a b => halted a = true \/ quiet a -> halted b = true \/ quiet b) (dstep (fun _ => True) scr)); [auto|auto|apply dstep_quiet|].
    apply exec_cmds_star; [apply scripts_ok_True|apply cmds_ok_True]. }
  destruct (C (or_intror Q)) as [X|X]; [congruence|exact X].
Qed.

(* every reachable top-level state of a scenario that did not panic has no post action pending *)
Lemma run_quiet scr bscr cmds : halted (run scr bscr cmds) = false -> quiet (run scr bscr cmds).
Proof. unfold run. apply exec_cmds_quiet. split; reflexivity. Qed.

(* what reregister / unregister answer when aimed at the running source (deferred) and at no object; with these: of all actions only
   update() and disable() record a deferred action (Loop_actions.pending_exec_action_other), and only when the target is the very
   source whose callback is running (pending_update_self, pending_disable_self) *)
Lemma disp_reregister_running s o t : is_running s o = true -> (exists ob, objs s o = Some ob) -> disp_reregister s o t = (ROk, false, s).
Proof. intros H [ob E]. unfold disp_reregister. rewrite E, H. reflexivity. Qed.
Lemma disp_unregister_running s o t : is_running s o = true -> (exists ob, objs s o = Some ob) -> disp_unregister s o t = (ROk, false, s).
Proof. intros H [ob E]. unfold disp_unregister. rewrite E, H. reflexivity. Qed.
Lemma disp_reregister_noobj s o t : objs s o = None -> disp_reregister s o t = (ROther, true, s).
Proof. intros E. unfold disp_reregister. rewrite E. reflexivity. Qed.
Lemma disp_unregister_noobj s o t : objs s o = None -> disp_unregister s o t = (ROther, true, s).
Proof. intros E. unfold disp_unregister. rewrite E. reflexivity. Qed.

Lemma pending_update_self s h :
  pending (exec_action s (AUpdate h)) = pending s \/
  exists t et o reg, lookup s h = Some (t, et, o) /\ running s = Some (o, reg) /\ pending (exec_action s (AUpdate h)) = Reregister.
Proof.
  unfold exec_action. destruct (halted s) eqn:Hh; [left; reflexivity|]. unfold do_update.
  destruct (lookup s h) as [[[t et] o]|] eqn:El; [|left; reflexivity].
  destruct (objs s o) as [ob|] eqn:Eo.
  2:{ left. rewrite (disp_reregister_noobj s o et Eo). rewrite Hh. reflexivity. }
  destruct (is_running s o) eqn:Er.
  - right. rewrite (disp_reregister_running s o et Er (ex_intro _ ob Eo)). rewrite Hh. cbn.
    unfold is_running in Er. destruct (running s) as [[r reg]|]; [|discriminate].
    apply N.eqb_eq in Er. subst r. exists t, et, o, reg. repeat split.
  - left. pose proof (pending_disp_reregister s o et) as P. pose proof (disp_reregister_done' s o et Er) as D.
    destruct (disp_reregister s o et) as [[r d] s1]. cbn in P, D. subst d.
    destruct (halted s1); [exact P|]. destruct r; cbn; exact P.
Qed.
Lemma pending_disable_self s h :
  pending (exec_action s (ADisable h)) = pending s \/
  exists t et o reg, lookup s h = Some (t, et, o) /\ running s = Some (o, reg) /\ pending (exec_action s (ADisable h)) = Disable.
Proof.
  unfold exec_action. destruct (halted s) eqn:Hh; [left; reflexivity|]. unfold do_disable.
  destruct (lookup s h) as [[[t et] o]|] eqn:El; [|left; reflexivity].
  destruct (objs s o) as [ob|] eqn:Eo.
  2:{ left. rewrite (disp_unregister_noobj s o t Eo). reflexivity. }
  destruct (is_running s o) eqn:Er.
  - right. rewrite (disp_unregister_running s o t Er (ex_intro _ ob Eo)). cbn.
    unfold is_running in Er. destruct (running s) as [[r reg]|]; [|discriminate].
    apply N.eqb_eq in Er. subst r. exists t, et, o, reg. repeat split.
  - left. pose proof (pending_disp_unregister s o t) as P. pose proof (disp_unregister_done' s o t Er) as D.
    destruct (disp_unregister s o t) as [[r d] s1]. cbn in P, D. subst d.
    destruct r; cbn; exact P.
Qed.
