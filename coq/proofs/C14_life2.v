(* C14 / C08 / C15, whole histories INCLUDING callbacks: the lifecycle invariant with the exception for the source being
   processed, closed under every action, callback, event, dispatch and command; hence no run ever reaches unreachable!() in a
   lifecycle loop (fewer than 65536 reuses of a slot). *)
From CV Require Import Base Token PostAction Env Loop.
From CVP Require Import Loop_frames Loop_walk Seq_lemmas C06_proofs C14_life.
Open Scope N_scope.

Definition gens_ok (s : st) : Prop := slots_wf (slots s) /\ gens_small (slots s).
Definition UNIQ (s : st) : Prop :=
  forall i j sl sl' o, nth_error (slots s) i = Some sl -> nth_error (slots s) j = Some sl' -> s_obj sl = Some o -> s_obj sl' = Some o -> i = j.
(* the object being processed: it exists; its token's slot is at the token's generation holding it or nothing, or further on; no
   other slot holds it *)
Definition RUN (s : st) : Prop :=
  forall o reg, running s = Some (o, reg) ->
    t_sub reg = 0 /\
    (exists sl, nth_error (slots s) (N.to_nat (t_id reg)) = Some sl /\ t_ver reg <= s_gen sl /\
                (s_gen sl = t_ver reg -> s_obj sl = Some o \/ s_obj sl = None)) /\
    (forall i sl, nth_error (slots s) i = Some sl -> s_obj sl = Some o -> i = N.to_nat (t_id reg) /\ s_gen sl = t_ver reg).
Definition Q (s : st) : Prop := LI s (running s) /\ gens_ok s /\ TS s /\ UNIQ s /\ RUN s.
(* the same of o and reg, whether or not they are still recorded as being processed *)
Definition SLOTR (s : st) (o : N) (reg : tok) : Prop :=
  t_sub reg = 0 /\
  (exists slr, nth_error (slots s) (N.to_nat (t_id reg)) = Some slr /\ t_ver reg <= s_gen slr /\ (s_gen slr = t_ver reg -> s_obj slr = Some o \/ s_obj slr = None)) /\
  (forall i sli, nth_error (slots s) i = Some sli -> s_obj sli = Some o -> i = N.to_nat (t_id reg) /\ s_gen sli = t_ver reg).

(* with well-formed slots and small generations a token resolves to a slot exactly when index and generation agree *)
Lemma slot_get_gen s t sl : gens_ok s -> nth_error (slots s) (N.to_nat (t_id t)) = Some sl ->
  same_source_as (s_tok sl) t = true <-> s_gen sl = t_ver t.
Proof.
  intros [W G] Hn. destruct (W _ _ Hn) as (_ & Wid & _ & Wver). pose proof (G _ _ Hn) as Hs. rewrite N.mod_small in Wver by exact Hs.
  unfold same_source_as. rewrite Wid, N2Nat.id, N.eqb_refl. cbn [andb]. rewrite Wver. apply N.eqb_eq.
Qed.
Lemma running_maybe_drop' s o : running (maybe_drop s o) = running s.
Proof. apply running_maybe_drop. Qed.

(* Q only reads slots, lifecycle, objs, toks and running *)
Lemma Q_frame_keep s s' : slots s' = slots s -> lifecycle s' = lifecycle s -> objs_keep s s' -> toks s' = toks s -> running s' = running s ->
  Q s -> Q s'.
Proof.
  intros Hs Hl Ho Ht Hr (L & [W G] & T & U & R). unfold Q, gens_ok, TS, UNIQ, RUN. rewrite Hs, Hr, Ht.
  split; [apply (LI_frame s); [exact Hs|exact Hl|exact Ho|exact L]|].
  split; [split; [exact W|exact G]|]. split; [exact T|]. split; [exact U|exact R].
Qed.
Lemma Q_frame_eq s s' : slots s' = slots s -> lifecycle s' = lifecycle s -> objs s' = objs s -> toks s' = toks s -> running s' = running s ->
  Q s -> Q s'.
Proof. intros Hs Hl Ho. apply Q_frame_keep; [exact Hs|exact Hl|apply objs_keep_eq; exact Ho]. Qed.

Lemma gens_small_upd_same l i old new : nth_error l i = Some old -> s_gen new = s_gen old -> gens_small l -> gens_small (upd l i new).
Proof.
  intros Hn Hg G j sl Hj. destruct (nth_error_upd_inv _ _ _ _ _ _ Hn Hj) as [[_ ->]|[_ Hj']]; [rewrite Hg; exact (G _ _ Hn)|exact (G _ _ Hj')].
Qed.

Lemma run_tok_of_lookup s h t et o rt : gens_ok s -> TS s -> RUN s -> lookup s h = Some (t, et, o) -> running s = Some (o, rt) -> rt = t.
Proof.
  intros GO T R El Hrun. destruct (lookup_spec _ _ _ _ _ El) as (Ht & sl & Hn & Hss & Hob & _).
  destruct (R o rt Hrun) as (Rsub & _ & Rall). destruct (Rall _ sl Hn Hob) as [Ri Rg].
  apply (same_slot_same_tok sl); [|exact Hss|exact Rsub|exact (T h t Ht)].
  apply (slot_get_gen s rt sl GO); [rewrite <- Ri; exact Hn|exact Rg].
Qed.

Lemma slots_do_remove s h : slots (do_remove s h) = slots s \/
  exists i sl, nth_error (slots s) i = Some sl /\ slots (do_remove s h) = upd (slots s) i (mkSlot (s_tok sl) None (s_gen sl)).
Proof.
  unfold do_remove. destruct (lookup s h) as [[[t et] o]|] eqn:El; [|left; reflexivity].
  destruct (lookup_spec _ _ _ _ _ El) as (_ & sl & Hn & _). right. exists (N.to_nat (t_id t)), sl. split; [exact Hn|].
  set (s1 := set_slots s (slot_set_obj (slots s) t None)).
  pose proof (slots_disp_unregister s1 o t) as F. destruct (disp_unregister s1 o t) as [[r d] s2]. cbn [snd] in F.
  cbn [slots emit set_log]. rewrite slots_maybe_drop, F. unfold s1. cbn [slots set_slots]. unfold slot_set_obj. rewrite Hn. reflexivity.
Qed.

(* vacating a slot keeps what Q, and P (the invariant of the end of an event, below), say about the slot list *)
Lemma vacate_keeps s s' i sl : nth_error (slots s) i = Some sl -> slots s' = upd (slots s) i (mkSlot (s_tok sl) None (s_gen sl)) ->
  (gens_ok s -> gens_ok s') /\ (UNIQ s -> UNIQ s') /\ (forall o reg, SLOTR s o reg -> SLOTR s' o reg).
Proof.
  intros Hn E. unfold gens_ok, UNIQ, SLOTR. rewrite E.
  pose proof (fun j slj => nth_error_upd_inv _ _ _ (mkSlot (s_tok sl) None (s_gen sl)) j slj Hn) as Hnth.
  split; [|split].
  - intros [W G]. split; [|apply (gens_small_upd_same _ _ sl); [exact Hn|reflexivity|exact G]].
    intros j slj Hj. destruct (Hnth j slj Hj) as [[-> ->]|[_ Hj']]; [exact (W _ _ Hn)|exact (W _ _ Hj')].
  - intros U a b sla slb oo Ha Hb Hoa Hobb.
    destruct (Hnth a sla Ha) as [[_ ->]|[_ Ha']]; [discriminate|]. destruct (Hnth b slb Hb) as [[_ ->]|[_ Hb']]; [discriminate|].
    exact (U a b sla slb oo Ha' Hb' Hoa Hobb).
  - intros o reg (Rsub & (rsl & Rn & Rle & Rsame) & Rall). split; [exact Rsub|]. split.
    + destruct (Nat.eq_dec i (N.to_nat (t_id reg))) as [Eq|Ne].
      * rewrite <- Eq in Rn |- *. rewrite Hn in Rn. injection Rn as <-. eexists. split; [eapply nth_error_upd_eq; exact Hn|]. cbn [s_gen s_obj].
        split; [exact Rle|]. intros _. right. reflexivity.
      * exists rsl. split; [rewrite nth_error_upd_other by exact Ne; exact Rn|]. split; assumption.
    + intros j slj Hj Hoj. destruct (Hnth j slj Hj) as [[_ ->]|[_ Hj']]; [discriminate|]. exact (Rall j slj Hj' Hoj).
Qed.

Lemma Q_do_remove s h : Q s -> Q (do_remove s h).
Proof.
  intros (L & GO & T & U & R).
  split; [rewrite running_do_remove; apply LI_do_remove; [exact L|exact T|]; intros t et o rt; apply (run_tok_of_lookup s h); assumption|].
  assert (T' : TS (do_remove s h)) by (unfold TS; rewrite toks_do_remove; exact T).
  destruct (slots_do_remove s h) as [E|(i & sl & Hn & E)].
  - split; [unfold gens_ok; rewrite E; exact GO|]. split; [exact T'|]. unfold UNIQ, RUN. rewrite E, running_do_remove. split; assumption.
  - destruct (vacate_keeps s (do_remove s h) i sl Hn E) as (VG & VU & VS).
    split; [exact (VG GO)|]. split; [exact T'|]. split; [exact (VU U)|].
    intros ro rt Hrun. rewrite running_do_remove in Hrun. exact (VS ro rt (R ro rt Hrun)).
Qed.

Lemma vacant_entry_gen l i l' : vacant_entry l = Some (i, l') ->
  forall old, nth_error l i = Some old -> exists e, nth_error l' i = Some e /\ s_gen e = s_gen old + 1.
Proof.
  unfold vacant_entry. destruct (find_vacant l 0) as [k|] eqn:Ef.
  - destruct (nth_error l k) as [sl|] eqn:En; [|discriminate]. intros [= <- <-] old Ho. rewrite En in Ho. injection Ho as <-.
    eexists. split; [eapply nth_error_upd_eq; exact En|reflexivity].
  - destruct (tok_new (N.of_nat (length l))) as [t|]; [|discriminate]. intros [= <- <-] old Ho.
    exfalso. assert (X : nth_error l (length l) = None) by (apply nth_error_None; lia). congruence.
Qed.

(* a vacant entry, possibly a new one, comes to hold h, or nothing if the registration failed *)
Lemma slots_do_insert s h x : slots (do_insert s h x) = slots s \/
  objs s h = None /\ exists i sl e o', vacant_entry (slots s) = Some (i, sl) /\ nth_error sl i = Some e /\ (o' = Some h \/ o' = None) /\
    slots (do_insert s h x) = upd sl i (mkSlot (s_tok e) o' (s_gen e)).
Proof.
  unfold do_insert. destruct (objs s h); [left; reflexivity|].
  set (s0 := set_objs s _). change (slots s0) with (slots s).
  destruct (vacant_entry (slots s)) as [[i sl]|]; [|left; reflexivity].
  destruct (nth_error sl i) as [e|] eqn:He; [|left; reflexivity].
  set (s1 := set_slots s0 (upd sl i (mkSlot (s_tok e) (Some h) (s_gen e)))).
  pose proof (slots_disp_register s1 h (s_tok e)) as F. destruct (disp_register s1 h (s_tok e)) as [r s2]. cbn [snd] in F.
  right. split; [reflexivity|]. exists i, sl, e.
  destruct (halted s2); [exists (Some h); repeat split; [exact He|left; reflexivity|exact F]|].
  destruct r; [exists (Some h); repeat split; [exact He|left; reflexivity|exact F]|..];
    (exists None; repeat split; [exact He|right; reflexivity|]; cbn [slots emit set_log set_slots]; rewrite F; apply upd_upd).
Qed.

Lemma Q_do_insert s h x : Q s -> gens_small (slots (do_insert s h x)) -> Q (do_insert s h x).
Proof.
  intros (L & [W G] & T & U & R) Gf.
  split; [rewrite running_do_insert; apply LI_do_insert; assumption|].
  split; [split; [apply (proj1 (do_insert_sstep s h x)); exact W|exact Gf]|].
  split; [apply TS_do_insert; assumption|].
  unfold UNIQ, RUN. rewrite running_do_insert.
  destruct (slots_do_insert s h x) as [E|(Eh & i & sl & e & o' & Ev & He & Ho' & E)]; rewrite E; [split; assumption|]. clear E Gf.
  destruct (vacant_entry_spec _ _ _ Ev) as (_ & V2 & _). pose proof (vacant_entry_gen _ _ _ Ev) as VG.
  assert (Hnth : forall j slj, nth_error (upd sl i (mkSlot (s_tok e) o' (s_gen e))) j = Some slj ->
                 (j = i /\ slj = mkSlot (s_tok e) o' (s_gen e)) \/ (j <> i /\ nth_error (slots s) j = Some slj)).
  { intros j slj Hj. destruct (nth_error_upd_inv _ _ _ _ _ _ He Hj) as [X|[Ne Hj']]; [left; exact X|right]. rewrite <- (V2 j Ne). split; assumption. }
  (* h is new: no slot holds it, and it is not the object being processed *)
  assert (Hfresh : forall j slj, nth_error (slots s) j = Some slj -> s_obj slj <> Some h).
  { intros j slj Hj Hc. destruct L as (_ & B & _). apply (B j slj h Hj Hc). exact Eh. }
  assert (Hnew : forall slj oo, slj = mkSlot (s_tok e) o' (s_gen e) -> s_obj slj = Some oo -> oo = h).
  { intros slj oo -> Hoo. cbn in Hoo. destruct Ho' as [-> | ->]; [injection Hoo as <-; reflexivity|discriminate]. }
  split.
  - intros a b sla slb oo Ha Hb Hoa Hobb.
    destruct (Hnth a sla Ha) as [[-> Ea]|[Na Ha']]; destruct (Hnth b slb Hb) as [[-> Eb]|[Nb Hb']]; try reflexivity.
    + exfalso. rewrite (Hnew sla oo Ea Hoa) in Hobb. exact (Hfresh b slb Hb' Hobb).
    + exfalso. rewrite (Hnew slb oo Eb Hobb) in Hoa. exact (Hfresh a sla Ha' Hoa).
    + exact (U a b sla slb oo Ha' Hb' Hoa Hobb).
  - intros ro rt Hrun. destruct (R ro rt Hrun) as (Rsub & (rsl & Rn & Rle & Rsame) & Rall).
    assert (Hro : ro <> h).
    { intros ->. destruct L as (_ & _ & C). apply (C h rt Hrun). exact Eh. }
    split; [exact Rsub|]. split.
    + destruct (Nat.eq_dec i (N.to_nat (t_id rt))) as [Eq|Ne].
      * (* the slot of the running source is the one being reused: it moved to a later generation *)
        rewrite <- Eq in Rn |- *. destruct (VG rsl Rn) as [e' [He' Hge]]. rewrite He in He'. injection He' as <-.
        eexists. split; [eapply nth_error_upd_eq; exact He|]. cbn [s_gen s_obj]. split; [lia|]. intros X. lia.
      * exists rsl. split; [rewrite nth_error_upd_other by exact Ne; rewrite V2 by (intros X; apply Ne; symmetry; exact X); exact Rn|]. split; assumption.
    + intros j slj Hj Hoj. destruct (Hnth j slj Hj) as [[_ Ej]|[_ Hj']]; [destruct (Hro (Hnew slj ro Ej Hoj))|exact (Rall j slj Hj' Hoj)].
Qed.

(* ---------- every action: the slot list changes only in insert and remove ---------- *)
Lemma slots_exec_action s a : (forall h x, a <> AInsert h x) -> (forall h, a <> ARemove h) -> slots (exec_action s a) = slots s.
Proof.
  intros Hi Hr. assert (Ei : is_insert a = false) by (destruct a; try reflexivity; destruct (Hi _ _ eq_refl)).
  assert (Er : is_remove a = false) by (destruct a; try reflexivity; destruct (Hr _ eq_refl)).
  apply (star_incl (fun x y => slots y = slots x) (astep a)); [reflexivity|intros; congruence| |apply exec_action_astar].
  destruct 1; try reflexivity; try congruence;
    [apply slots_disp_register|apply slots_disp_reregister|apply slots_disp_unregister|apply slots_maybe_drop|apply slots_set_obj_src|apply slots_set_obj_src].
Qed.

Lemma Q_exec_action s a : Q s -> gens_small (slots (exec_action s a)) -> Q (exec_action s a).
Proof.
  intros Qs Gf. pose proof Qs as (L & [W G] & T & U & R).
  assert (SAME : slots (exec_action s a) = slots s -> Q (exec_action s a)).
  { intros E. unfold Q, gens_ok, UNIQ, RUN. rewrite running_exec_action, E.
    split; [apply LI_exec_action; try assumption; intros h t et o rt; apply (run_tok_of_lookup s h); [split|..]; assumption|].
    split; [split; assumption|]. split; [apply TS_exec_action; assumption|]. split; assumption. }
  destruct a; try (apply SAME; apply slots_exec_action; discriminate); unfold exec_action in *; (destruct (halted s); [exact Qs|]).
  - apply Q_do_insert; assumption.
  - apply Q_do_remove; exact Qs.
Qed.

(* re-arming a timer (or any change of the source that keeps its lc flag) *)
Lemma Q_set_obj_src_same_lc s o x : (forall ob, objs s o = Some ob -> src_lc x = src_lc (o_src ob)) -> Q s -> Q (set_obj_src s o x).
Proof.
  intros H Qs. apply (Q_frame_keep s); [apply slots_set_obj_src|apply lifecycle_set_obj_src|apply objs_keep_set_obj_src; exact H|apply toks_set_obj_src|apply running_set_obj_src|exact Qs].
Qed.
Lemma src_lc_set_dl x dl : src_lc (src_set_dl x dl) = src_lc x.
Proof. destruct x as [lc own subs [tm|]|g|tm|c g]; reflexivity. Qed.

(* what every step of a callback does: the same object stays the one being processed, and Q is kept *)
Definition qstep (s s' : st) : Prop := running s' = running s /\ gpres Q s s'.
Lemma qstep_refl s : qstep s s.
Proof. split; [reflexivity|apply gpres_refl]. Qed.
Lemma qstep_trans a b c : qstep a b -> qstep b c -> qstep a c.
Proof. intros [R1 G1] [R2 G2]. split; [congruence|eapply gpres_trans; eassumption]. Qed.
Lemma qstep_frame s s' : slots s' = slots s -> running s' = running s -> (Q s -> Q s') -> qstep s s'.
Proof. intros Hs Hr H. split; [exact Hr|apply gpres_frame; assumption]. Qed.

Lemma cstep_qstep h s s' : cstep (fun _ => True) h s s' -> qstep s s'.
Proof.
  destruct 1 as [s sub p|s a _|s e' _|s ob tk c dl Eo|s ob Eo];
    try (apply qstep_frame; [reflexivity|reflexivity|apply Q_frame_eq; reflexivity]).
  - split; [apply running_exec_action|]. split; [apply exec_action_sstep|apply Q_exec_action].
  - apply qstep_frame; [rewrite slots_set_obj_src; reflexivity|rewrite running_set_obj_src; reflexivity|]. intros Qs.
    apply Q_set_obj_src_same_lc; [|apply (Q_frame_eq s); try reflexivity; exact Qs].
    intros ob0 E0. change (objs s h = Some ob0) in E0. rewrite Eo in E0. injection E0 as <-. apply src_lc_set_dl.
  - apply qstep_frame; [apply slots_set_obj_src|apply running_set_obj_src|]. intros Qs.
    apply Q_set_obj_src_same_lc; [|exact Qs]. intros ob0 E0. rewrite Eo in E0. injection E0 as <-. apply src_lc_set_dl.
Qed.
Lemma star_qstep h a b : star (cstep (fun _ => True) h) a b -> qstep a b.
Proof. apply star_incl; [apply qstep_refl|apply qstep_trans|apply cstep_qstep]. Qed.

Lemma obj_process_qstep scr s o ev : is_running s o = true -> qstep s (fst (obj_process scr s o ev)).
Proof. intros Hr. apply (star_qstep o). apply obj_process_star; [apply scripts_ok_True|exact Hr]. Qed.

(* ---------- the end of an event's processing: the excused entry is resolved ---------- *)
(* what is known between set_running None and end_processing: nothing runs, but the entry of (o, reg) may still dangle *)
Definition P (s : st) (o : N) (reg : tok) : Prop :=
  LI s (Some (o, reg)) /\ gens_ok s /\ TS s /\ UNIQ s /\ running s = None /\ SLOTR s o reg.

Lemma P_frame_keep s s' o reg : slots s' = slots s -> lifecycle s' = lifecycle s -> objs_keep s s' -> toks s' = toks s -> running s' = running s ->
  P s o reg -> P s' o reg.
Proof.
  intros Hs Hl Ho Ht Hr (L & [W G] & T & U & R & S). unfold P, gens_ok, TS, UNIQ, SLOTR. rewrite Hs, Hr, Ht.
  split; [apply (LI_frame s); [exact Hs|exact Hl|exact Ho|exact L]|].
  split; [split; [exact W|exact G]|]. split; [exact T|]. split; [exact U|]. split; [exact R|exact S].
Qed.

(* re-registering the processed source: the entry it records is its own, excused if it dangles *)
Lemma LIx_disp_reregister s o reg : LI s (Some (o, reg)) -> t_sub reg = 0 -> LI (snd (disp_reregister s o reg)) (Some (o, reg)).
Proof.
  intros L Hs. apply LI_disp_reregister_entry; [exact L|exact Hs|]. intros ob Eo Hlc. right. exists o, ob. repeat split; assumption.
Qed.

Lemma P_apply_post s o reg r : P s o reg -> P (snd (apply_post s o reg r)) o reg.
Proof.
  intros Ps. pose proof Ps as (L & [W G] & T & U & Rn & S). unfold apply_post. destruct r.
  - exact Ps.
  - (* Reregister *)
    destruct S as (Ssub & S2 & S3).
    pose proof (LIx_disp_reregister s o reg L Ssub) as L1.
    pose proof (slots_disp_reregister s o reg) as F1. pose proof (toks_disp_reregister s o reg) as F2. pose proof (running_disp_reregister s o reg) as F3.
    destruct (disp_reregister s o reg) as [[rs d] sx]. cbn [snd] in *.
    unfold P, gens_ok, TS, UNIQ, SLOTR. rewrite F1, F2, F3.
    split; [exact L1|]. split; [split; [exact W|exact G]|]. split; [exact T|]. split; [exact U|]. split; [exact Rn|]. split; [exact Ssub|split; [exact S2|exact S3]].
  - (* Disable *)
    pose proof (LI_disp_unregister s o reg (Some (o, reg)) L) as L1.
    pose proof (slots_disp_unregister s o reg) as F1. pose proof (toks_disp_unregister s o reg) as F2. pose proof (running_disp_unregister s o reg) as F3.
    destruct (disp_unregister s o reg) as [[rs d] sx]. cbn [snd] in *.
    unfold P, gens_ok, TS, UNIQ, SLOTR. rewrite F1, F2, F3.
    split; [exact L1|]. split; [split; [exact W|exact G]|]. split; [exact T|]. split; [exact U|]. split; [exact Rn|exact S].
  - (* Remove: the slot the token resolves to is vacated *)
    cbn [snd]. destruct (slot_get (slots s) reg) as [slr|] eqn:Eg; [|exact Ps].
    destruct (slot_get_some _ _ _ Eg) as [Hn Hss]. pose proof S as (Ssub & (slr' & Hn' & Sle & Ssame) & S3).
    rewrite Hn in Hn'. injection Hn' as <-.
    assert (Hgen : s_gen slr = t_ver reg) by (apply (slot_get_gen s reg slr (conj W G) Hn); exact Hss).
    set (i0 := N.to_nat (t_id reg)) in *.
    set (s' := set_slots s (slot_set_obj (slots s) reg None)).
    assert (SL : slots s' = upd (slots s) i0 (mkSlot (s_tok slr) None (s_gen slr))).
    { cbn [s' slots set_slots]. unfold slot_set_obj. fold i0. rewrite Hn. reflexivity. }
    destruct (vacate_keeps s s' i0 slr Hn SL) as (VG & VU & VS).
    split; [|split; [exact (VG (conj W G))|split; [exact T|split; [exact (VU U)|split; [exact Rn|exact (VS o reg S)]]]]].
    destruct L as (A & B & C). split; [|split].
    + intros e He. cbn [lifecycle set_slots] in He. destruct (A e He) as [Se [Gd|E]]; (split; [exact Se|]); [|right; exact E].
      destruct Gd as (sle & oe & obe & G1 & G2 & G3 & G4). destruct (slot_get_some _ _ _ G1) as [En0 Es0].
      destruct (Nat.eq_dec (N.to_nat (t_id e)) i0) as [Eq|Ne].
      * right. rewrite Eq, Hn in En0. injection En0 as <-.
        assert (Ee : e = reg) by (eapply same_slot_same_tok; eassumption). subst e.
        destruct (Ssame Hgen) as [Ho|Ho]; [|congruence]. rewrite Ho in G2. injection G2 as <-.
        exists o, obe. repeat split; assumption.
      * left. exists sle, oe, obe. repeat split; try assumption.
        unfold slot_get. rewrite SL, nth_error_upd_other by (intros X; apply Ne; symmetry; exact X). rewrite En0, Es0. reflexivity.
    + intros j slj oj Hj Hoj. rewrite SL in Hj. destruct (nth_error_upd_inv _ _ _ _ _ _ Hn Hj) as [[_ ->]|[_ Hj']]; [discriminate|]. exact (B j slj oj Hj' Hoj).
    + exact C.
Qed.

Lemma LI_drop_zombies l : forall s, LI s (running s) -> LI (drop_zombies s l) (running s).
Proof.
  induction l as [|z r IH]; intros s L; cbn [drop_zombies]; [exact L|].
  rewrite <- (running_maybe_drop s z). apply IH. rewrite running_maybe_drop. apply LI_maybe_drop. exact L.
Qed.

(* the processed source is unregistered after its processing: its entry, the excused one, goes, so every entry resolves *)
Lemma LI_unregister_resolved s o reg ob : LI s (Some (o, reg)) -> is_running s o = false -> objs s o = Some ob ->
  LI (snd (disp_unregister s o reg)) None.
Proof.
  intros L Hnr Eo. destruct (LI_disp_unregister s o reg _ L) as (A & B & C).
  split; [|split]; [|exact B|intros o' t' H; discriminate].
  intros e He. destruct (A e He) as [Se [Gd|E]]; (split; [exact Se|]); left; [exact Gd|]. exfalso.
  destruct E as (o' & ob' & E1 & E2 & E3). injection E1 as <- <-.
  destruct (disp_unregister_objs_keep s o reg o ob Eo) as [ob2 [K1 K2]]. rewrite K1 in E2. injection E2 as <-. rewrite K2 in E3.
  exact (disp_unregister_removes s o reg ob Hnr Eo E3 He).
Qed.

Lemma P_finish s o reg : P s o reg ->
  let s6 := if slot_vacant_for s reg then snd (disp_unregister s o reg) else s in
  Q (end_processing s6 o) /\ running (end_processing s6 o) = None.
Proof.
  intros (L & [W G] & T & U & Rn & (Ssub & (slr & Hn & Sle & Ssame) & S3)). cbv zeta.
  assert (HO : exists ob, objs s o = Some ob).
  { destruct L as (_ & _ & C). specialize (C o reg eq_refl). destruct (objs s o) as [ob|]; [exists ob; reflexivity|congruence]. }
  destruct HO as [ob Eo].
  assert (Hnr : is_running s o = false) by exact (is_running_none s o Rn).
  (* the state after the deferred unregistration, with every entry resolved *)
  assert (S6 : let s6 := if slot_vacant_for s reg then snd (disp_unregister s o reg) else s in
               LI s6 None /\ slots s6 = slots s /\ toks s6 = toks s /\ running s6 = None).
  { cbv zeta. unfold slot_vacant_for. destruct (slot_get (slots s) reg) as [slg|] eqn:Eg.
    - destruct (slot_get_some _ _ _ Eg) as [Hng Hss]. fold (N.to_nat (t_id reg)) in Hng. rewrite Hn in Hng. injection Hng as <-.
      assert (Hgen : s_gen slr = t_ver reg) by (apply (slot_get_gen s reg slr (conj W G) Hn); exact Hss).
      destruct (s_obj slr) as [o2|] eqn:Eo2.
      + (* still occupied: by the source itself; its entry resolves *)
        destruct (Ssame Hgen) as [Ho|Ho]; [|discriminate]. injection Ho as ->.
        split; [|split; [reflexivity|split; [reflexivity|exact Rn]]].
        destruct L as (A & B & C). split; [|split]; [|exact B|intros o' t' H; discriminate].
        intros e He. destruct (A e He) as [Se [Gd|E]]; (split; [exact Se|]); left; [exact Gd|].
        destruct E as (o' & ob' & E1 & E2 & E3). injection E1 as <- <-. exists slr, o, ob'. repeat split; assumption.
      + (* vacated: the deferred unregistration drops the entry *)
        split; [exact (LI_unregister_resolved s o reg ob L Hnr Eo)|].
        split; [apply slots_disp_unregister|split; [apply toks_disp_unregister|rewrite running_disp_unregister; exact Rn]].
    - (* the token does not resolve any more (the slot went on to a later generation) *)
      split; [exact (LI_unregister_resolved s o reg ob L Hnr Eo)|].
      split; [apply slots_disp_unregister|split; [apply toks_disp_unregister|rewrite running_disp_unregister; exact Rn]]. }
  cbv zeta in S6. destruct S6 as (L6 & F1 & F2 & F3).
  set (s6 := if slot_vacant_for s reg then snd (disp_unregister s o reg) else s) in *.
  unfold end_processing.
  set (s7 := set_zombies (set_running s6 None) []).
  assert (L7 : LI s7 None) by (apply (LI_frame s6); [reflexivity|reflexivity|apply objs_keep_eq; reflexivity|exact L6]).
  assert (R7 : running s7 = None) by reflexivity.
  assert (Lf : LI (drop_zombies (maybe_drop s7 o) (zombies s6)) None).
  { pose proof (LI_drop_zombies (zombies s6) (maybe_drop s7 o)) as D. rewrite running_maybe_drop in D. apply D. apply (LI_maybe_drop s7 o). exact L7. }
  assert (Rf : running (drop_zombies (maybe_drop s7 o) (zombies s6)) = None) by (rewrite running_drop_zombies, running_maybe_drop; exact R7).
  assert (Sf : slots (drop_zombies (maybe_drop s7 o) (zombies s6)) = slots s) by (rewrite slots_drop_zombies, slots_maybe_drop; exact F1).
  assert (Tf : toks (drop_zombies (maybe_drop s7 o) (zombies s6)) = toks s) by (rewrite toks_drop_zombies, toks_maybe_drop; exact F2).
  split; [|exact Rf].
  unfold Q, gens_ok, TS, UNIQ, RUN. rewrite Rf, Sf, Tf.
  split; [exact Lf|]. split; [split; [exact W|exact G]|]. split; [exact T|]. split; [exact U|intros ro rt H; discriminate].
Qed.

Definition TOP (s : st) : Prop := halted s = true \/ (Q s /\ running s = None).

(* an event's processing starts: its object, resolved through a sub-id-0 token at the slot's generation, becomes the running one *)
Lemma Q_start s o reg sl : Q s -> running s = None -> slot_get (slots s) reg = Some sl -> s_obj sl = Some o -> t_sub reg = 0 ->
  Q (set_running s (Some (o, reg))).
Proof.
  intros (L & [W G] & T & U & R) Hr Eg Eo Hsub. destruct (slot_get_some _ _ _ Eg) as [Hn Hss].
  assert (Hgen : s_gen sl = t_ver reg) by (apply (slot_get_gen s reg sl (conj W G) Hn); exact Hss).
  unfold Q, gens_ok, TS, UNIQ, RUN. cbn [running slots toks set_running].
  split; [|split; [split; [exact W|exact G]|split; [exact T|split; [exact U|]]]].
  - rewrite Hr in L. destruct L as (A & B & C). split; [|split].
    + intros e He. destruct (A e He) as [Se [Gd|E]]; [|destruct (excused_none _ _ E)]. split; [exact Se|]. left. exact Gd.
    + exact B.
    + intros o' t' [= <- <-]. exact (B _ sl o Hn Eo).
  - intros ro rt [= <- <-]. split; [exact Hsub|]. split.
    + exists sl. split; [exact Hn|]. split; [lia|]. intros _. left. exact Eo.
    + intros i sli Hi Hoi. assert (i = N.to_nat (t_id reg)) by exact (U i _ sli sl o Hi Hn Hoi Eo). subst i.
      split; [reflexivity|]. rewrite Hn in Hi. injection Hi as <-. exact Hgen.
Qed.
Lemma Q_process_event scr s ev : Q s -> running s = None -> gens_small (slots (fst (process_event scr s ev))) ->
  TOP (fst (process_event scr s ev)).
Proof.
  intros Qs Hr. set (reg := forget_sub_id (unpack (ev_key ev))).
  destruct (slot_get (slots s) reg) as [sl|] eqn:Eg; [|unfold process_event; fold reg; rewrite Eg; intros _; right; split; assumption].
  destruct (s_obj sl) as [o|] eqn:Eo; [|unfold process_event; fold reg; rewrite Eg, Eo; intros _; right; split; assumption].
  rewrite (process_event_phases scr s ev sl o Eg Eo). cbv zeta. fold reg.
  set (sr := set_running s (Some (o, reg))).
  assert (Qr : Q sr) by (apply (Q_start s o reg sl); try assumption; reflexivity).
  assert (Hrun : is_running sr o = true) by apply is_running_set_running.
  destruct (obj_process_qstep scr sr o ev Hrun) as [RO [_ QO]]. specialize (QO Qr).
  destruct (obj_process scr sr o ev) as [s2 ret]. cbn [fst] in *.
  destruct (halted s2) eqn:H2; [intros _; left; exact H2|].
  (* the slots from s2 on only move forward, and the post phase keeps P *)
  pose proof (proj2 (star_sstep _ (lstep_sstep (fun _ => True) o) _ _ (post_phase_star _ s2 o reg ret))) as SS.
  assert (PS : P (set_pending (set_running s2 None) Continue) o reg -> P (snd (post_phase s2 o reg ret)) o reg).
  { intros P4. unfold post_phase. destruct ret as [r|]; [apply P_apply_post; exact P4|exact P4]. }
  destruct (post_phase s2 o reg ret) as [ok s5]. cbn [snd] in *.
  destruct (halted s5) eqn:H5; [intros _; left; exact H5|]. cbn [fst]. intros Gf.
  assert (G5 : gens_small (slots s5)).
  { rewrite slots_end_processing in Gf. destruct (slot_vacant_for s5 reg); [rewrite slots_disp_unregister in Gf|]; exact Gf. }
  assert (G2 : gens_small (slots s2)) by (eapply gens_small_mono; [exact SS|exact G5]).
  specialize (QO G2). destruct QO as (L2 & [W2 _] & T2 & U2 & R2).
  assert (Hr2 : running s2 = Some (o, reg)) by (rewrite RO; reflexivity).
  assert (P4 : P (set_pending (set_running s2 None) Continue) o reg).
  { unfold P, gens_ok, TS, UNIQ, SLOTR. cbn [slots toks running set_pending set_running].
    split; [|split; [split; [exact W2|exact G2]|split; [exact T2|split; [exact U2|split; [reflexivity|]]]]].
    - rewrite Hr2 in L2. apply (LI_frame s2); [reflexivity|reflexivity|apply objs_keep_eq; reflexivity|exact L2].
    - destruct (R2 o reg Hr2) as (A & B & C). split; [exact A|split; [exact B|exact C]]. }
  right. exact (P_finish s5 o reg (PS P4)).
Qed.

Lemma TOP_frame s s' : slots s' = slots s -> lifecycle s' = lifecycle s -> objs s' = objs s -> toks s' = toks s -> running s' = running s ->
  halted s' = halted s -> TOP s -> TOP s'.
Proof.
  intros Hs Hl Ho Ht Hr Hh [X|[Qs R]]; [left; congruence|right]. split; [apply (Q_frame_eq s); assumption|congruence].
Qed.

Lemma dstep_TOP scr s s' : dstep (fun _ => True) scr s s' -> gpres TOP s s'.
Proof.
  destruct 1 as [s ev Hh|s a _|s o code|s v|s k|s l|s t order|s|s v];
    try (apply gpres_frame; [reflexivity|apply TOP_frame; reflexivity]).
  - split; [apply process_event_sstep|]. intros [X|[Qs Hr]] G; [congruence|]. apply Q_process_event; assumption.
  - split; [apply exec_action_sstep|]. intros [X|[Qs Hr]] G; [rewrite halted_exec_action_stuck by exact X; left; exact X|].
    right. split; [apply Q_exec_action; assumption|rewrite running_exec_action; exact Hr].
  - apply gpres_frame; [reflexivity|]. intros _. left. reflexivity.
Qed.

Lemma Q_init : Q init.
Proof.
  split; [|split; [split|split; [|split]]].
  - split; [|split]; [intros t []|intros [|i] sl o H; discriminate|intros o t H; discriminate].
  - intros [|i] sl H; discriminate.
  - intros [|i] sl H; discriminate.
  - intros h t H. discriminate.
  - intros [|i] j sl sl' o H; discriminate.
  - intros o reg H. discriminate.
Qed.

(* EVERY state a scenario reaches - any commands, any scripted callbacks, dispatches, idles - either has halted (an excluded call
   panicked) or satisfies the invariant with nothing running, provided no slot was reused 65536 times *)
Theorem run_TOP scr bscr cmds : gens_small (slots (run scr bscr cmds)) -> TOP (run scr bscr cmds).
Proof.
  intros G. unfold run in *. destruct (star_gpres TOP _ (dstep_TOP scr) init (fold_left (exec_cmd scr bscr) cmds init)) as [_ H].
  - apply exec_cmds_star; [apply scripts_ok_True|apply cmds_ok_True].
  - apply H; [right; split; [exact Q_init|reflexivity]|exact G].
Qed.

(* ... so the lifecycle loops of a dispatch started in such a state never reach unreachable!() *)
Theorem never_unreachable scr bscr cmds : gens_small (slots (run scr bscr cmds)) -> halted (run scr bscr cmds) = false ->
  let s := run scr bscr cmds in
  snd (before_sleep_loop bscr s (lifecycle s)) <> BSPanic /\
  forall e2 line polled, let s1 := fst (before_sleep_loop bscr s (lifecycle s)) in
    snd (before_handle_loop (emit (set_en s1 e2) line) (lifecycle (emit (set_en s1 e2) line)) polled) = true.
Proof.
  intros G Hh. cbv zeta. destruct (run_TOP scr bscr cmds G) as [X|[(L & _) Hr]]; [congruence|].
  rewrite Hr in L. apply LI_loops_safe. exact L.
Qed.
