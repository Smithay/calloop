(* C15: a rejected insertion leaves the loop as it was - the lifecycle set, every handle's token, every other object and every
   occupied slot are untouched, the rejected object sits in no slot, nothing is pending or running that was not before *)
From CV Require Import Base Env Loop.
From CVP Require Import Loop_frames Loop_walk Seq_lemmas C06_proofs C14_life.
Open Scope N_scope.

Lemma vacant_entry_keeps_occupied l i l' : vacant_entry l = Some (i, l') ->
  forall j sl, nth_error l j = Some sl -> s_obj sl <> None -> nth_error l' j = Some sl /\ j <> i.
Proof. intros H j sl Hj Ho. destruct (proj1 (vacant_entry_spec l i l' H) j sl Hj Ho) as [A B]. split; assumption. Qed.


Lemma in_slots_upd_here l : forall i old t h g, nth_error l i = Some old -> in_slots (upd l i (mkSlot t (Some h) g)) h = true.
Proof.
  unfold in_slots. induction l as [|x r IH]; intros [|i] old t h g H; cbn in *; try discriminate.
  - rewrite N.eqb_refl. reflexivity.
  - rewrite (IH i old t h g H). apply orb_true_r.
Qed.

(* the insertion was rejected = the run did not stop and the new object ended up in no slot *)
Theorem rejected_insert_leaves_loop_intact s h x : halted s = false -> objs s h = None ->
  let s' := do_insert s h x in
  halted s' = false -> in_slots (slots s') h = false ->
  lifecycle s' = lifecycle s /\ toks s' = toks s /\ pending s' = pending s /\ running s' = running s /\ idles s' = idles s /\
  (forall o, o <> h -> objs s' o = objs s o) /\
  (forall j sl, nth_error (slots s) j = Some sl -> s_obj sl <> None -> nth_error (slots s') j = Some sl).
Proof.
  intros Hh Ho. cbv zeta. unfold do_insert. rewrite Ho.
  set (s0 := set_objs s (fupd (objs s) h (Some (mkObj x true)))).
  destruct (vacant_entry (slots s0)) as [[i sl]|] eqn:Ev; [|intros X; discriminate].
  destruct (nth_error sl i) as [e|] eqn:He; [|intros X; discriminate].
  set (s1 := set_slots s0 (upd sl i (mkSlot (s_tok e) (Some h) (s_gen e)))).
  pose proof (slots_disp_register s1 h (s_tok e)) as FS. pose proof (toks_disp_register s1 h (s_tok e)) as FT.
  pose proof (pending_disp_register s1 h (s_tok e)) as FP. pose proof (running_disp_register s1 h (s_tok e)) as FR.
  pose proof (idles_disp_register s1 h (s_tok e)) as FI.
  pose proof (fun o (Hne : o <> h) => objs_disp_register_other s1 h (s_tok e) o Hne) as FO.
  pose proof (disp_register_fail_lifecycle s1 h (s_tok e)) as FL.
  destruct (disp_register s1 h (s_tok e)) as [r s2]. cbn [snd] in *.
  destruct (halted s2) eqn:H2; [intros X; congruence|]. intros _.
  assert (O0 : forall o, o <> h -> objs s0 o = objs s o) by (intros o Hne; unfold s0; cbn; unfold fupd; destruct (N.eqb_spec o h); [contradiction|reflexivity]).
  assert (Keep : forall j slj, nth_error (slots s) j = Some slj -> s_obj slj <> None -> nth_error (upd sl i (mkSlot (s_tok e) None (s_gen e))) j = Some slj).
  { intros j slj Hj Hobj. destruct (vacant_entry_keeps_occupied (slots s0) i sl Ev j slj Hj Hobj) as [A B]. rewrite nth_error_upd_other by congruence. exact A. }
  destruct r.
  1: { (* it went through: the object is in its slot *)
    cbn [slots emit set_log set_toks]. rewrite FS. cbn [s1 slots set_slots]. rewrite (in_slots_upd_here sl i e _ h _ He). discriminate. }
  (* every failing result puts the slot back *)
  all: intros _; cbn [lifecycle toks pending running idles objs slots emit set_log set_slots]; rewrite FS; cbn [s1 slots set_slots]; rewrite upd_upd.
  all: repeat split; try (rewrite (FL _ _ eq_refl) by discriminate; reflexivity); try assumption.
  all: intros o Hne; rewrite (FO o Hne); apply O0; exact Hne.
Qed.
