(* C02: nothing that the poller or the wheel reports is dropped on the way to its source, and an event a source holds the token of
   does invoke that source's callback *)
From Coq Require Import Permutation.
From CV Require Import Base Token Env Loop.
From CVP Require Import Env_lemmas C05_perm C01_attr.
Import ListNotations.
Open Scope N_scope.

Lemma take_key_perm k l : forall e l', take_key k l = Some (e, l') -> Permutation l (e :: l') /\ ev_key e = k.
Proof.
  induction l as [|x r IH]; intros e l' H; cbn in H; [discriminate|].
  destruct (N.eqb_spec (ev_key x) k) as [E|_]; [injection H as <- <-; split; [apply Permutation_refl|exact E]|].
  destruct (take_key k r) as [[y r']|] eqn:T; [|discriminate]. injection H as <- <-. destruct (IH y r' eq_refl) as [P K].
  split; [|exact K]. eapply Permutation_trans; [apply perm_skip; exact P|apply perm_swap].
Qed.
(* the batch order is the implementation's, but whatever order is asked for nothing is lost or duplicated *)
Lemma reorder_perm order : forall l, Permutation (reorder order l) l.
Proof.
  induction order as [|k r IH]; intros l; cbn; [apply Permutation_refl|].
  destruct (take_key k l) as [[e l']|] eqn:T; [|apply IH].
  destruct (take_key_perm k l e l' T) as [P _]. eapply Permutation_trans; [apply perm_skip; apply IH|symmetry; exact P].
Qed.

(* what one poll hands to the loop: every level-triggered entry that is ready for its interest, and every due timer *)
Theorem poll_reports_level e t order ent : In ent (epoll e) -> e_mode ent = Level ->
  rd_nonempty (ready_for (e_int ent) (fdc e (e_fd ent))) = true ->
  In (mkEv (e_key ent) (ready_for (e_int ent) (fdc e (e_fd ent)))) (fst (poll e t order)).
Proof.
  intros Hi Hm Hr. unfold poll. pose proof (ep_wait_level (fdc e) (epoll e) ent Hi Hm Hr) as W.
  destruct (ep_wait (fdc e) (epoll e)) as [fdev tbl]. cbn [fst] in W. destruct (wh_expire _ _ _) as [ex rest]. cbn [fst].
  eapply Permutation_in; [symmetry; apply reorder_perm|]. apply in_or_app. left. exact W.
Qed.
Theorem poll_reports_due_timer e t order w : In w (wh_heap (whl e)) -> (w_dl w <= 2 * t + 1)%Z ->
  In (mkEv (pack (w_tok w)) (mkRd true false)) (fst (poll e t order)).
Proof.
  intros Hi Hd. unfold poll. destruct (ep_wait (fdc e) (epoll e)) as [fdev tbl].
  destruct (wh_expire (length (wh_heap (whl e))) (wh_heap (whl e)) (2 * t + 1)%Z) as [ex rest] eqn:E. cbn [fst].
  eapply Permutation_in; [symmetry; apply reorder_perm|]. apply in_or_app. right. apply in_map_iff. exists w. split; [reflexivity|].
  pose proof (wh_expire_perm _ _ _ _ _ E) as P. destruct (wh_expire_spec _ _ _ _ _ E) as (_ & _ & _ & _ & F).
  pose proof (Permutation_in _ P Hi) as Hin. apply in_app_or in Hin. destruct Hin as [H|H]; [exact H|].
  specialize (F (le_n _)). rewrite Forall_forall in F. specialize (F w H). lia.
Qed.

(* a batch that is processed without an error is processed event by event, in order *)
Lemma process_events_app scr a : forall s b,
  process_events scr s (a ++ b) = let (s1, ok) := process_events scr s a in if ok then process_events scr s1 b else (s1, false).
Proof.
  induction a as [|ev r IH]; intros s b; cbn [app process_events]; [reflexivity|].
  destruct (process_event scr s ev) as [s1 ok]. destruct ok; [apply IH|reflexivity].
Qed.
Theorem ok_batch_processes_every_event scr s a ev b : snd (process_events scr s (a ++ ev :: b)) = true ->
  exists s1, process_events scr s a = (s1, true) /\ snd (process_event scr s1 ev) = true /\
             process_events scr s (a ++ ev :: b) = process_events scr (fst (process_event scr s1 ev)) b.
Proof.
  rewrite process_events_app. destruct (process_events scr s a) as [s1 ok]. destruct ok; [|discriminate]. cbn [process_events].
  destruct (process_event scr s1 ev) as [s2 ok2] eqn:E. destruct ok2; [|discriminate]. intros _. exists s1.
  rewrite E. split; [reflexivity|]. split; reflexivity.
Qed.

(* the callback counter of a source goes up by exactly one when an event it holds the token of is handed to it *)
Lemma cbn_callback scr s h sub p : cbc (fst (callback scr s h sub p)) h = S (cbc s h).
Proof. unfold callback. cbn [fst]. rewrite cbc_exec_actions. cbn. unfold fupd. rewrite N.eqb_refl. reflexivity. Qed.
Theorem composite_event_invokes_callback scr s o ob ev lc own subs tmr :
  objs s o = Some ob -> o_src ob = SComp lc own subs tmr ->
  (opt_tok_is own (unpack (ev_key ev)) = true \/ find_sub subs (unpack (ev_key ev)) 1 <> None) ->
  cbc (fst (obj_process scr s o ev)) o = S (cbc s o).
Proof.
  intros Ho Hs Hc. unfold obj_process. rewrite Ho, Hs.
  assert (X : exists j, (if opt_tok_is own (unpack (ev_key ev)) then Some 0%Z else match find_sub subs (unpack (ev_key ev)) 1 with Some j => Some (Z.of_nat j) | None => None end) = Some j).
  { destruct (opt_tok_is own _); [eexists; reflexivity|]. destruct Hc as [X|X]; [discriminate|]. destruct (find_sub subs _ 1); [eexists; reflexivity|contradiction]. }
  destruct X as [j ->]. pose proof (cbn_callback scr s o j (zN (rd_code (ev_rd ev)))) as C. destruct (callback scr s o j _) as [s1 sc]. exact C.
Qed.
Theorem timer_event_invokes_callback scr s o ob ev tm tk c dl :
  objs s o = Some ob -> o_src ob = STimer tm -> tm_reg tm = Some (tk, c) -> tm_dl tm = Some dl -> tok_eqb tk (unpack (ev_key ev)) = true ->
  cbc (fst (obj_process scr s o ev)) o = S (cbc s o).
Proof.
  intros Ho Hs Hr Hd Ht. unfold obj_process. rewrite Ho, Hs, Hr, Hd, Ht.
  pose proof (cbn_callback scr s o 0%Z dl) as C. destruct (callback scr s o 0%Z dl) as [s1 sc]. cbn [fst] in C.
  destruct (sc_ret sc) as [|[[| |]|[| |]|]]; cbn [fst]; rewrite ?cbc_set_obj_src; exact C.
Qed.
Theorem ping_event_invokes_callback scr s o ob ev g :
  objs s o = Some ob -> o_src ob = SPing g -> opt_tok_is (g_tok g) (unpack (ev_key ev)) = true -> 2 <= fdc (en s) (g_fd g) ->
  cbc (fst (obj_process scr s o ev)) o = S (cbc s o).
Proof.
  intros Ho Hs Ht Hc. unfold obj_process. rewrite Ho, Hs. unfold ping_drain. rewrite Ht. unfold fd_read.
  destruct (N.eqb_spec (fdc (en s) (g_fd g)) 0) as [E|_]; [lia|]. cbn [fst snd].
  destruct (N.eqb_spec (fdc (en s) (g_fd g)) 0) as [E|_]; [lia|].
  destruct (N.leb_spec 2 (fdc (en s) (g_fd g))) as [_|L]; [|lia]. cbn [fst]. rewrite cbn_callback. reflexivity.
Qed.
