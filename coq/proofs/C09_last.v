(* C09: a request the running source makes on itself replaces whatever it had requested before - the last one wins, nothing is merged *)
From CV Require Import Base Token PostAction Env Loop.
From CVP Require Import Loop_frames C09_proofs.
Open Scope N_scope.

Definition self_handle (s : st) (h : N) : Prop :=
  halted s = false /\ exists t et o reg ob, lookup s h = Some (t, et, o) /\ running s = Some (o, reg) /\ objs s o = Some ob.

Lemma self_update_exact s h : self_handle s h ->
  exec_action s (AUpdate h) = emit (set_pending s Reregister) (op_line OP_UPDATE h ROk).
Proof.
  intros [Hh (t & et & o & reg & ob & L & R & O)]. unfold exec_action. rewrite Hh. unfold do_update. rewrite L.
  rewrite (disp_reregister_running s o et (is_running_some s o reg R) (ex_intro _ ob O)). rewrite Hh. reflexivity.
Qed.
Lemma self_disable_exact s h : self_handle s h ->
  exec_action s (ADisable h) = emit (set_pending s Disable) (op_line OP_DISABLE h ROk).
Proof.
  intros [Hh (t & et & o & reg & ob & L & R & O)]. unfold exec_action. rewrite Hh. unfold do_disable. rewrite L.
  rewrite (disp_unregister_running s o t (is_running_some s o reg R) (ex_intro _ ob O)). reflexivity.
Qed.
Lemma self_handle_after s h p line : self_handle s h -> self_handle (emit (set_pending s p) line) h.
Proof. intros [Hh X]. split; [exact Hh|exact X]. Qed.

(* whatever was pending, and in whichever order: after update-then-disable a Disable is pending, after disable-then-update a
   Reregister, after two of the same kind that kind *)
Theorem last_deferred_request_wins s h : self_handle s h ->
  pending (exec_action (exec_action s (AUpdate h)) (ADisable h)) = Disable /\
  pending (exec_action (exec_action s (ADisable h)) (AUpdate h)) = Reregister /\
  pending (exec_action (exec_action s (ADisable h)) (ADisable h)) = Disable /\
  pending (exec_action (exec_action s (AUpdate h)) (AUpdate h)) = Reregister.
Proof.
  intros H. rewrite (self_update_exact s h H), (self_disable_exact s h H).
  rewrite (self_disable_exact _ h (self_handle_after s h Reregister _ H)), (self_update_exact _ h (self_handle_after s h Disable _ H)).
  rewrite (self_disable_exact _ h (self_handle_after s h Disable _ H)), (self_update_exact _ h (self_handle_after s h Reregister _ H)).
  repeat split.
Qed.
Example self_handle_somewhere :
  let s := set_running (exec_action init (AInsert 1 (SComp false None [mkGen 10 (mkInt true false) Level None false] None))) (Some (1, mkTok 0 0 0)) in
  self_handle s 1 /\ pending (exec_action (exec_action s (AUpdate 1)) (ADisable 1)) = Disable.
Proof. split; [split; [reflexivity|]; vm_compute; do 5 eexists; repeat split; reflexivity|vm_compute; reflexivity]. Qed.
