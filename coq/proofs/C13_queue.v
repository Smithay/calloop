(* C13, queue discipline over whole dispatches: below `dispatch` every function only appends to the idle queue; a dispatch that
   does not reach its idle phase keeps the queue (plus what was inserted), one that does leaves exactly what was inserted during
   that phase; the IDLE lines of a phase are a subsequence of the snapshot, in order. *)
From CV Require Import Base Loop.
From CVP Require Import Loop_frames Loop_walk Seq_lemmas.
Open Scope N_scope.

Definition iapp (s s' : st) : Prop := exists extra, idles s' = idles s ++ extra.
Lemma iapp_refl s : iapp s s. Proof. exists []. rewrite app_nil_r. reflexivity. Qed.
Lemma iapp_trans a b c : iapp a b -> iapp b c -> iapp a c.
Proof. intros [x Hx] [y Hy]. exists (x ++ y). rewrite Hy, Hx, app_assoc. reflexivity. Qed.
Lemma iapp_eq s s' : idles s' = idles s -> iapp s s'.
Proof. intros E. exists []. rewrite E, app_nil_r. reflexivity. Qed.
Lemma iapp_l s0 s s' : idles s0 = idles s -> iapp s0 s' -> iapp s s'.
Proof. intros E [x Hx]. exists x. rewrite <- E. exact Hx. Qed.

Lemma iapp_exec_action s a : iapp s (exec_action s a).
Proof. destruct (idles_exec_action s a) as [E|[i [_ E]]]; [apply iapp_eq; exact E|exists [i]; exact E]. Qed.
Lemma star_iapp (step : st -> st -> Prop) : (forall a b, step a b -> iapp a b) -> forall a b, star step a b -> iapp a b.
Proof. apply star_incl; [apply iapp_refl|apply iapp_trans]. Qed.
Lemma cstep_iapp ok h s s' : cstep ok h s s' -> iapp s s'.
Proof.
  destruct 1; try (apply iapp_eq; reflexivity); [apply iapp_exec_action| |]; apply iapp_eq; rewrite idles_set_obj_src; reflexivity.
Qed.
Lemma lstep_iapp ok o s s' : lstep ok o s s' -> iapp s s'.
Proof.
  destruct 1; try (apply iapp_eq; reflexivity).
  - eapply cstep_iapp; eassumption.
  - apply iapp_eq, idles_disp_reregister.
  - apply iapp_eq, idles_disp_unregister.
  - apply iapp_eq, idles_maybe_drop.
Qed.
Lemma iapp_exec_actions l : forall s, iapp s (exec_actions s l).
Proof. unfold exec_actions. induction l as [|a l IH]; intros s; cbn [fold_left]; [apply iapp_refl|]. eapply iapp_trans; [apply iapp_exec_action|apply IH]. Qed.
Lemma run_idles_step scr s i l :
  run_idles scr s (i :: l) =
  if halted s then s
  else if idle_cancelled s i then run_idles scr s l
  else let s2 := exec_actions (set_ridle (emit s (L T_IDLE [zN i])) (Some i)) (sc_acts (nth 0 (scr (IDLE_BASE + i)) default_script)) in
       if halted s2 then s2 else run_idles scr (set_ridle s2 None) l.
Proof. reflexivity. Qed.
Lemma run_idles_appends scr l : forall s, iapp s (run_idles scr s l).
Proof.
  induction l as [|i l IH]; intros s; [apply iapp_refl|]. rewrite run_idles_step.
  destruct (halted s); [apply iapp_refl|]. destruct (idle_cancelled s i); [apply IH|]. cbv zeta.
  match goal with |- context [exec_actions ?x ?a] => set (s2 := exec_actions x a); assert (E : iapp s s2) by (apply (iapp_l x); [reflexivity|apply iapp_exec_actions]) end.
  destruct (halted s2); [exact E|]. eapply iapp_trans; [exact E|]. apply (iapp_l (set_ridle s2 None)); [reflexivity|apply IH].
Qed.
Lemma iapp_process_event scr s ev : iapp s (fst (process_event scr s ev)).
Proof. destruct (process_event_star (fun _ => True) scr (scripts_ok_True scr) s ev) as [o S]. eapply star_iapp; [apply lstep_iapp|exact S]. Qed.
Lemma iapp_process_events scr evs : forall s, iapp s (fst (process_events scr s evs)).
Proof.
  induction evs as [|ev r IH]; intros s; cbn [process_events]; [apply iapp_refl|].
  pose proof (iapp_process_event scr s ev) as P. destruct (process_event scr s ev) as [s1 ok]. cbn [fst] in P.
  destruct ok; [eapply iapp_trans; [exact P|apply IH]|exact P].
Qed.

Theorem dispatch_idle_queue scr bscr s t order :
  let s' := dispatch scr bscr s t order in
  (* the idle phase was not reached (a hook or an event failed, or the run stopped): nothing left the queue *)
  iapp s s' \/
  (* it was: the phase worked on everything queued until then - what was queued before the dispatch plus what its source callbacks
     inserted, in that order - and what is queued now is what the idle callbacks themselves inserted *)
  exists s5, iapp s s5 /\ iapp (set_idles s5 []) (run_idles scr (set_idles s5 []) (idles s5)) /\
             idles s' = idles (run_idles scr (set_idles s5 []) (idles s5)).
Proof.
  cbv zeta. unfold dispatch. destruct (before_sleep_loop_writes bscr (lifecycle s) s) as (b & y & h & lg & B).
  destruct (before_sleep_loop bscr s (lifecycle s)) as [s1 bs]. cbn [fst] in B. apply (f_equal idles) in B. change (idles s1 = idles s) in B.
  destruct bs; [|left; apply iapp_eq; exact B|left; apply iapp_eq; exact B].
  destruct (poll (en s1) t order) as [polled e2].
  set (s3 := emit (set_en s1 e2) _).
  destruct (before_handle_loop_writes (lifecycle s3) polled s3) as (b' & y' & h' & lg' & H).
  destruct (before_handle_loop s3 _ polled) as [s4 ok]. cbn [fst] in H. apply (f_equal idles) in H. change (idles s4 = idles s1) in H.
  assert (E4 : idles s4 = idles s) by (rewrite H; exact B).
  destruct ok; cbn [negb]; [|left; apply iapp_eq; exact E4].
  pose proof (iapp_process_events scr (synth s4 ++ polled) (set_synth s4 [])) as P.
  destruct (process_events scr _ _) as [s5 ok2]. cbn [fst] in P.
  assert (P5 : iapp s s5) by (apply (iapp_l (set_synth s4 [])); [exact E4|exact P]).
  destruct (halted s5); [left; exact P5|]. destruct ok2; cbn [negb]; [|left; eapply iapp_trans; [exact P5|apply iapp_eq; reflexivity]].
  right. exists s5. split; [exact P5|]. split; [apply run_idles_appends|].
  destruct (halted (run_idles scr _ _)); reflexivity.
Qed.

Definition is_idle_line (l : tline) : bool := match l with L k _ => k =? T_IDLE end.
(* the IDLE lines of the log, newest first *)
Definition idl (s : st) : list tline := filter is_idle_line (log s).
Lemma idl_emit s k a : (k =? T_IDLE) = false -> idl (emit s (L k a)) = idl s.
Proof. intros H. unfold idl. cbn [log emit set_log filter is_idle_line]. rewrite H. reflexivity. Qed.
Lemma idl_log s s' : log s' = log s -> idl s' = idl s.
Proof. intros E. unfold idl. rewrite E. reflexivity. Qed.
Lemma log_set_obj_src s o x : log (set_obj_src s o x) = log s.
Proof. unfold set_obj_src. destruct (objs s o); reflexivity. Qed.
Lemma idl_set_obj_src s o x : idl (set_obj_src s o x) = idl s. Proof. apply idl_log. apply log_set_obj_src. Qed.
Lemma idl_regop s o x k b : idl (regop s o x k b) = idl s.
Proof. unfold regop. destruct x; reflexivity. Qed.
Lemma idl_panic s k : idl (panic s k) = idl s.
Proof. reflexivity. Qed.

Lemma idl_disp_register s o t : idl (snd (disp_register s o t)) = idl s.
Proof.
  unfold disp_register. destruct (objs s o) as [ob|]; [|reflexivity]. destruct (is_running s o); [apply idl_panic|].
  destruct (src_register _ _ _) as [[r x'] e1]. destruct r; cbn [snd].
  - destruct (src_lc x'); [change (idl (regop (set_obj_src (set_en s e1) o x') o x' 0%Z true) = idl s)|]; rewrite idl_regop, idl_set_obj_src; reflexivity.
  - rewrite idl_regop, idl_set_obj_src. reflexivity.
  - rewrite idl_panic, idl_set_obj_src. reflexivity.
Qed.
Lemma idl_disp_reregister s o t : idl (snd (disp_reregister s o t)) = idl s.
Proof.
  unfold disp_reregister. destruct (objs s o) as [ob|]; [|reflexivity]. destruct (is_running s o); [reflexivity|].
  destruct (src_reregister _ _ _) as [[r x'] e1]. destruct r; cbn [snd].
  - destruct (src_lc x'); [change (idl (regop (set_obj_src (set_en s e1) o x') o x' 1%Z true) = idl s)|]; rewrite idl_regop, idl_set_obj_src; reflexivity.
  - rewrite idl_regop, idl_set_obj_src. reflexivity.
  - rewrite idl_panic, idl_set_obj_src. reflexivity.
Qed.
Lemma idl_disp_unregister s o t : idl (snd (disp_unregister s o t)) = idl s.
Proof.
  unfold disp_unregister. destruct (objs s o) as [ob|]; [|reflexivity]. destruct (is_running s o); [reflexivity|].
  destruct (src_unregister _ _) as [[ok x'] e1]. cbn [snd].
  destruct (src_lc x'); [change (idl (regop (set_obj_src (set_en s e1) o x') o x' 2%Z ok) = idl s)|]; rewrite idl_regop, idl_set_obj_src; reflexivity.
Qed.
Lemma idl_maybe_drop s o : idl (maybe_drop s o) = idl s.
Proof.
  unfold maybe_drop, drop_obj. destruct (objs s o) as [ob|]; [|reflexivity]. destruct (o_ext ob || in_slots (slots s) o); [reflexivity|].
  destruct (is_running s o); [reflexivity|]. rewrite idl_emit by reflexivity. reflexivity.
Qed.
Lemma idl_drop_zombies l : forall s, idl (drop_zombies s l) = idl s.
Proof. induction l as [|o r IH]; intros s; cbn [drop_zombies]; [reflexivity|]. rewrite IH. apply idl_maybe_drop. Qed.
Lemma idl_end_processing s o : idl (end_processing s o) = idl s.
Proof. unfold end_processing. rewrite idl_drop_zombies, idl_maybe_drop. reflexivity. Qed.

Lemma astep_idl a s s' : astep a s s' -> idl s' = idl s.
Proof.
  destruct 1; try reflexivity.
  - apply idl_disp_register.
  - apply idl_disp_reregister.
  - apply idl_disp_unregister.
  - apply idl_maybe_drop.
  - apply idl_set_obj_src.
  - apply idl_set_obj_src.
Qed.
Lemma idl_exec_action s a : idl (exec_action s a) = idl s.
Proof. apply (star_incl (fun a b => idl b = idl a) (astep a)); [reflexivity|intros; congruence|apply astep_idl|apply exec_action_astar]. Qed.
Lemma idl_exec_actions l : forall s, idl (exec_actions s l) = idl s.
Proof. unfold exec_actions. induction l as [|a l IH]; intros s; cbn [fold_left]; [reflexivity|]. rewrite IH. apply idl_exec_action. Qed.

Inductive subseq {A} : list A -> list A -> Prop :=
| ss_nil l : subseq [] l
| ss_take x a b : subseq a b -> subseq (x :: a) (x :: b)
| ss_skip x a b : subseq a b -> subseq a (x :: b).

(* the idle phase: the IDLE lines it adds are those of a subsequence of its snapshot, in snapshot order, each entry at most once *)
Theorem run_idles_lines scr l : forall s, exists ran,
  idl (run_idles scr s l) = map (fun i => L T_IDLE [zN i]) (rev ran) ++ idl s /\ subseq ran l.
Proof.
  induction l as [|i l IH]; intros s; cbn [run_idles]; [exists []; split; [reflexivity|constructor]|].
  destruct (halted s); [exists []; split; [reflexivity|constructor]|].
  destruct (idle_cancelled s i); [destruct (IH s) as [ran [A B]]; exists ran; split; [exact A|apply ss_skip; exact B]|].
  match goal with |- context [exec_actions ?x ?a] => set (s1 := x); set (acts := a) end.
  assert (E1 : idl s1 = L T_IDLE [zN i] :: idl s) by reflexivity.
  assert (E2 : idl (exec_actions s1 acts) = L T_IDLE [zN i] :: idl s) by (rewrite idl_exec_actions; exact E1).
  destruct (halted (exec_actions s1 acts)); [exists [i]; split; [exact E2|apply ss_take; constructor]|].
  destruct (IH (set_ridle (exec_actions s1 acts) None)) as [ran [A B]]. exists (i :: ran). split; [|apply ss_take; exact B].
  rewrite A. change (idl (set_ridle (exec_actions s1 acts) None)) with (idl (exec_actions s1 acts)). rewrite E2.
  cbn [rev]. rewrite map_app, <- app_assoc. reflexivity.
Qed.
