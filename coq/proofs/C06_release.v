(* C06, whole histories: by the end of every event's processing the loop has released what it no longer holds. In every state a
   scenario reaches, an object that still exists is held by a slot of the loop, by a Dispatcher the user kept, is the source
   being processed, or is queued for release at the end of that processing; between events nothing is queued. *)
From CV Require Import Base Token PostAction Env Loop.
From CVP Require Import Loop_frames Loop_walk C06_proofs C14_life C14_life2.
Open Scope N_scope.

Definition held (s : st) (o : N) (ob : obj) : Prop :=
  o_ext ob = true \/ in_slots (slots s) o = true \/ is_running s o = true \/ In o (zombies s).
Definition REL (s : st) : Prop := forall o ob, objs s o = Some ob -> held s o ob.

Lemma zombies_set_obj_src s o x : zombies (set_obj_src s o x) = zombies s.
Proof. unfold set_obj_src. destruct (objs s o); reflexivity. Qed.
Lemma zombies_regop s o x k b : zombies (regop s o x k b) = zombies s.
Proof. unfold regop. destruct x; reflexivity. Qed.

(* a state that differs only in things REL does not read, or in the source of one object *)
Lemma REL_frame s s' : slots s' = slots s -> running s' = running s -> zombies s' = zombies s ->
  (forall o ob', objs s' o = Some ob' -> exists ob, objs s o = Some ob /\ o_ext ob = o_ext ob') -> REL s -> REL s'.
Proof.
  intros Hs Hr Hz Ho R o ob' H. destruct (Ho o ob' H) as [ob [E X]]. unfold held, is_running. rewrite Hs, Hr, Hz, <- X. exact (R o ob E).
Qed.
Lemma REL_eq s s' : slots s' = slots s -> running s' = running s -> zombies s' = zombies s -> objs s' = objs s -> REL s -> REL s'.
Proof. intros Hs Hr Hz Ho. apply REL_frame; try assumption. intros o ob' H. exists ob'. rewrite <- Ho. split; [exact H|reflexivity]. Qed.
Lemma objs_set_obj_src_ext s o x o' ob' : objs (set_obj_src s o x) o' = Some ob' -> exists ob, objs s o' = Some ob /\ o_ext ob = o_ext ob'.
Proof.
  unfold set_obj_src. destruct (objs s o) as [ob|] eqn:E; [|intros H; exists ob'; split; [exact H|reflexivity]].
  cbn [objs set_objs]. unfold fupd. destruct (N.eqb_spec o' o) as [->|]; [|intros H; exists ob'; split; [exact H|reflexivity]].
  intros [= <-]. exists ob. split; [exact E|reflexivity].
Qed.
Lemma REL_set_obj_src s o x : REL s -> REL (set_obj_src s o x).
Proof. apply REL_frame; [apply slots_set_obj_src|apply running_set_obj_src|apply zombies_set_obj_src|apply objs_set_obj_src_ext]. Qed.

Lemma zombies_disp_register s o t : zombies (snd (disp_register s o t)) = zombies s.
Proof.
  unfold disp_register. destruct (objs s o) as [ob|]; [|reflexivity]. destruct (is_running s o); [reflexivity|].
  destruct (src_register _ _ _) as [[r x'] e1]. destruct r; cbn [snd]; try destruct (src_lc x'); cbn [zombies set_lifecycle panic set_halted emit set_log];
    rewrite ?zombies_regop, ?zombies_set_obj_src; reflexivity.
Qed.
Lemma zombies_disp_reregister s o t : zombies (snd (disp_reregister s o t)) = zombies s.
Proof.
  unfold disp_reregister. destruct (objs s o) as [ob|]; [|reflexivity]. destruct (is_running s o); [reflexivity|].
  destruct (src_reregister _ _ _) as [[r x'] e1]. destruct r; cbn [snd]; try destruct (src_lc x'); cbn [zombies set_lifecycle panic set_halted emit set_log];
    rewrite ?zombies_regop, ?zombies_set_obj_src; reflexivity.
Qed.
Lemma zombies_disp_unregister s o t : zombies (snd (disp_unregister s o t)) = zombies s.
Proof.
  unfold disp_unregister. destruct (objs s o) as [ob|]; [|reflexivity]. destruct (is_running s o); [reflexivity|].
  destruct (src_unregister _ _) as [[ok x'] e1]. cbn [snd]. destruct (src_lc x'); cbn [zombies set_lifecycle]; rewrite ?zombies_regop, ?zombies_set_obj_src; reflexivity.
Qed.
(* the dispatcher operations rewrite one object's source: which objects exist and who holds them from outside stays *)
Lemma objs_disp_register_ext s o t o' ob' : objs (snd (disp_register s o t)) o' = Some ob' -> exists ob, objs s o' = Some ob /\ o_ext ob = o_ext ob'.
Proof.
  unfold disp_register. destruct (objs s o) as [ob|]; [|intros H; exists ob'; split; [exact H|reflexivity]].
  destruct (is_running s o); [intros H; exists ob'; split; [exact H|reflexivity]|].
  destruct (src_register _ _ _) as [[r x'] e1]. intros H.
  assert (H' : objs (set_obj_src (set_en s e1) o x') o' = Some ob').
  { destruct r; cbn [snd] in H; try destruct (src_lc x'); cbn [objs set_lifecycle panic set_halted emit set_log] in H; rewrite ?objs_regop in H; exact H. }
  exact (objs_set_obj_src_ext _ _ _ _ _ H').
Qed.
Lemma objs_disp_reregister_ext s o t o' ob' : objs (snd (disp_reregister s o t)) o' = Some ob' -> exists ob, objs s o' = Some ob /\ o_ext ob = o_ext ob'.
Proof.
  unfold disp_reregister. destruct (objs s o) as [ob|]; [|intros H; exists ob'; split; [exact H|reflexivity]].
  destruct (is_running s o); [intros H; exists ob'; split; [exact H|reflexivity]|].
  destruct (src_reregister _ _ _) as [[r x'] e1]. intros H.
  assert (H' : objs (set_obj_src (set_en s e1) o x') o' = Some ob').
  { destruct r; cbn [snd] in H; try destruct (src_lc x'); cbn [objs set_lifecycle panic set_halted emit set_log] in H; rewrite ?objs_regop in H; exact H. }
  exact (objs_set_obj_src_ext _ _ _ _ _ H').
Qed.
Lemma objs_disp_unregister_ext s o t o' ob' : objs (snd (disp_unregister s o t)) o' = Some ob' -> exists ob, objs s o' = Some ob /\ o_ext ob = o_ext ob'.
Proof.
  unfold disp_unregister. destruct (objs s o) as [ob|]; [|intros H; exists ob'; split; [exact H|reflexivity]].
  destruct (is_running s o); [intros H; exists ob'; split; [exact H|reflexivity]|].
  destruct (src_unregister _ _) as [[ok x'] e1]. cbn [snd]. intros H.
  assert (H' : objs (set_obj_src (set_en s e1) o x') o' = Some ob') by (destruct (src_lc x'); cbn [objs set_lifecycle] in H; rewrite objs_regop in H; exact H).
  exact (objs_set_obj_src_ext _ _ _ _ _ H').
Qed.
Lemma REL_disp_register s o t : REL s -> REL (snd (disp_register s o t)).
Proof. apply REL_frame; [apply slots_disp_register|apply running_disp_register|apply zombies_disp_register|apply objs_disp_register_ext]. Qed.
Lemma REL_disp_reregister s o t : REL s -> REL (snd (disp_reregister s o t)).
Proof. apply REL_frame; [apply slots_disp_reregister|apply running_disp_reregister|apply zombies_disp_reregister|apply objs_disp_reregister_ext]. Qed.
Lemma REL_disp_unregister s o t : REL s -> REL (snd (disp_unregister s o t)).
Proof. apply REL_frame; [apply slots_disp_unregister|apply running_disp_unregister|apply zombies_disp_unregister|apply objs_disp_unregister_ext]. Qed.

(* maybe_drop: the object either stays held, is queued (while it is being processed), or ceases to exist *)
Lemma REL_maybe_drop_after s o : (forall o' ob, objs s o' = Some ob -> o' <> o -> held s o' ob) -> REL (maybe_drop s o).
Proof.
  intros R. unfold maybe_drop. destruct (objs s o) as [ob|] eqn:Eo.
  2:{ intros o' ob' H. destruct (N.eq_dec o' o) as [->|Hne]; [congruence|exact (R o' ob' H Hne)]. }
  destruct (o_ext ob || in_slots (slots s) o) eqn:E.
  - intros o' ob' H. destruct (N.eq_dec o' o) as [->|Hne]; [|exact (R o' ob' H Hne)]. rewrite Eo in H. injection H as <-.
    apply orb_true_iff in E as [E|E]; [left; exact E|right; left; exact E].
  - destruct (is_running s o) eqn:Er.
    + intros o' ob' H. cbn [objs set_zombies] in H. destruct (N.eq_dec o' o) as [->|Hne].
      * right; right; left. exact Er.
      * destruct (R o' ob' H Hne) as [A|[A|[A|A]]]; [left; exact A|right; left; exact A|right; right; left; exact A|right; right; right; right; exact A].
    + unfold drop_obj. intros o' ob' H. cbn [objs emit set_log set_objs set_en] in H. unfold fupd in H. destruct (N.eqb_spec o' o) as [->|Hne]; [discriminate|].
      exact (R o' ob' H Hne).
Qed.
Lemma REL_maybe_drop s o : REL s -> REL (maybe_drop s o).
Proof. intros R. apply REL_maybe_drop_after. intros o' ob H _. exact (R o' ob H). Qed.

Lemma in_slots_upd_other l i new o : (forall old, nth_error l i = Some old -> s_obj old <> Some o) -> in_slots l o = true -> in_slots (upd l i new) o = true.
Proof.
  intros Hold H. apply in_slots_spec in H as (j & sl & Hj & Ho). apply in_slots_spec.
  destruct (Nat.eq_dec i j) as [<-|Ne]; [exfalso; exact (Hold sl Hj Ho)|].
  exists j, sl. split; [rewrite nth_error_upd_other by exact Ne; exact Hj|exact Ho].
Qed.

Lemma REL_do_insert s h x : REL s -> REL (do_insert s h x).
Proof.
  intros R. unfold do_insert. destruct (objs s h) eqn:Eh; [apply (REL_eq s); try reflexivity; exact R|].
  set (s0 := set_objs s (fupd (objs s) h (Some (mkObj x true)))).
  assert (R0 : REL s0).
  { intros o ob H. unfold s0 in H. cbn [objs set_objs] in H. unfold fupd in H. destruct (N.eqb_spec o h) as [->|].
    - injection H as <-. left. reflexivity.
    - exact (R o ob H). }
  destruct (vacant_entry (slots s0)) as [[i sl]|] eqn:Ev; [|apply (REL_eq s0); try reflexivity; exact R0].
  change (slots s0) with (slots s) in Ev.
  destruct (vacant_entry_spec _ _ _ Ev) as (V1 & V2 & e & He & Heo). rewrite He.
  (* every state from here on has slots (upd sl i (tok, o', gen)): occupied slots of s are untouched *)
  assert (KEEP : forall o' o, in_slots (slots s) o = true -> in_slots (upd sl i (mkSlot (s_tok e) o' (s_gen e))) o = true).
  { intros o' o H. apply in_slots_spec in H as (j & slj & Hj & Ho). apply in_slots_spec.
    destruct (V1 j slj Hj) as [Hji Hj']; [congruence|]. exists j, slj. split; [rewrite nth_error_upd_other by (intros X; apply Hji; symmetry; exact X); exact Hj'|exact Ho]. }
  set (s1 := set_slots s0 (upd sl i (mkSlot (s_tok e) (Some h) (s_gen e)))).
  assert (R1 : REL s1).
  { intros o ob H. destruct (R0 o ob H) as [A|[A|[A|A]]]; [left; exact A|right; left; exact (KEEP (Some h) o A)|right; right; left; exact A|right; right; right; exact A]. }
  pose proof (REL_disp_register s1 h (s_tok e) R1) as R2.
  pose proof (slots_disp_register s1 h (s_tok e)) as FS. pose proof (running_disp_register s1 h (s_tok e)) as FR. pose proof (zombies_disp_register s1 h (s_tok e)) as FZ.
  assert (EXT : forall ob', objs (snd (disp_register s1 h (s_tok e))) h = Some ob' -> o_ext ob' = true).
  { intros ob' H. destruct (objs_disp_register_ext _ _ _ _ _ H) as [ob0 [E0 <-]].
    change (objs s1 h) with (objs s0 h) in E0. unfold s0 in E0. cbn [objs set_objs] in E0. unfold fupd in E0. rewrite N.eqb_refl in E0. injection E0 as <-. reflexivity. }
  destruct (disp_register s1 h (s_tok e)) as [r s2]. cbn [snd] in *.
  destruct (halted s2); [exact R2|].
  destruct r; try (apply (REL_eq s2); try reflexivity; exact R2).
  all: intros o ob H; cbn [objs emit set_log set_slots] in H; unfold held, is_running; cbn [slots running zombies emit set_log set_slots];
    (destruct (N.eq_dec o h) as [->|Hne]; [left; exact (EXT ob H)|]);
    (destruct (R2 o ob H) as [A|[A|[A|A]]]; [left; exact A| |right; right; left; exact A|right; right; right; exact A]);
    right; left; apply in_slots_upd_other; [|exact A];
    intros old Hold; rewrite FS in Hold; unfold s1 in Hold; cbn [slots set_slots] in Hold;
    rewrite (nth_error_upd_eq _ _ _ _ He) in Hold; injection Hold as <-; cbn; congruence.
Qed.

Lemma REL_do_remove s h : REL s -> REL (do_remove s h).
Proof.
  intros R. unfold do_remove. destruct (lookup s h) as [[[t et] o]|] eqn:El; [|apply (REL_eq s); try reflexivity; exact R].
  destruct (lookup_spec _ _ _ _ _ El) as (_ & sl & Hn & _ & Hob & _).
  set (s1 := set_slots s (slot_set_obj (slots s) t None)).
  (* after vacating the slot every object but o is still held *)
  assert (R1 : forall o' ob, objs s1 o' = Some ob -> o' <> o -> held s1 o' ob).
  { intros o' ob H Hne. destruct (R o' ob H) as [A|[A|[A|A]]]; [left; exact A| |right; right; left; exact A|right; right; right; exact A].
    right; left. unfold s1. cbn [slots set_slots]. unfold slot_set_obj. rewrite Hn. apply in_slots_upd_other; [|exact A].
    intros old Ho. rewrite Hn in Ho. injection Ho as <-. rewrite Hob. congruence. }
  pose proof (slots_disp_unregister s1 o t) as FS. pose proof (running_disp_unregister s1 o t) as FR. pose proof (zombies_disp_unregister s1 o t) as FZ.
  pose proof (objs_disp_unregister_ext s1 o t) as OE.
  destruct (disp_unregister s1 o t) as [[r d] s2]. cbn [snd] in *.
  apply (REL_eq (maybe_drop s2 o)); try reflexivity. apply REL_maybe_drop_after.
  intros o' ob' H Hne. destruct (OE o' ob' H) as [ob [E X]]. unfold held, is_running. rewrite FS, FR, FZ, <- X. exact (R1 o' ob E Hne).
Qed.

Lemma REL_exec_action s a : REL s -> REL (exec_action s a).
Proof.
  intros R. unfold exec_action. destruct (halted s); [exact R|].
  destruct a as [h x|h|h|h|h|h j it m|h dl|h|h|fd v|fd|p|p|p|c v|c v|c|c|i|i|p fd|c fd bound|]; try (apply (REL_eq s); try reflexivity; exact R).
  - apply REL_do_insert; exact R.
  - apply REL_do_remove; exact R.
  - unfold do_disable. destruct (lookup s h) as [[[t et] o]|]; [|apply (REL_eq s); try reflexivity; exact R].
    pose proof (REL_disp_unregister s o t R) as R1. destruct (disp_unregister s o t) as [[r d] s1]. cbn [snd] in R1.
    destruct r; [destruct d|..]; (apply (REL_eq s1); try reflexivity; exact R1).
  - unfold do_enable. destruct (lookup s h) as [[[t et] o]|]; [|apply (REL_eq s); try reflexivity; exact R].
    pose proof (REL_disp_register s o et R) as R1. destruct (disp_register s o et) as [r s1]. cbn [snd] in R1.
    destruct (halted s1); [exact R1|apply (REL_eq s1); try reflexivity; exact R1].
  - unfold do_update. destruct (lookup s h) as [[[t et] o]|]; [|apply (REL_eq s); try reflexivity; exact R].
    pose proof (REL_disp_reregister s o et R) as R1. destruct (disp_reregister s o et) as [[r d] s1]. cbn [snd] in R1.
    destruct (halted s1); [exact R1|]. destruct r; [destruct d|..]; (apply (REL_eq s1); try reflexivity; exact R1).
  - unfold do_setint. destruct (objs s h) as [ob|]; [|apply (REL_eq s); try reflexivity; exact R]. destruct (negb (o_ext ob)); [apply (REL_eq s); try reflexivity; exact R|].
    destruct (is_running s h); [apply (REL_eq s); try reflexivity; exact R|].
    destruct (o_src ob); try (apply (REL_eq s); try reflexivity; exact R).
    match goal with |- REL (emit (set_obj_src ?a ?b ?c) _) => apply (REL_eq (set_obj_src a b c)); try reflexivity; apply REL_set_obj_src; exact R end.
  - unfold do_setdl. destruct (objs s h) as [ob|]; [|apply (REL_eq s); try reflexivity; exact R]. destruct (negb (o_ext ob)); [apply (REL_eq s); try reflexivity; exact R|].
    destruct (is_running s h); [apply (REL_eq s); try reflexivity; exact R|].
    destruct (o_src ob) as [lc own subs [tm|]|g|tm|c g]; try (apply (REL_eq s); try reflexivity; exact R);
      match goal with |- REL (emit (set_obj_src ?a ?b ?c) _) => apply (REL_eq (set_obj_src a b c)); try reflexivity; apply REL_set_obj_src; exact R end.
  - unfold do_intoinner. destruct (objs s h) as [ob|] eqn:Eo; [|apply (REL_eq s); try reflexivity; exact R]. destruct (negb (o_ext ob)); [apply (REL_eq s); try reflexivity; exact R|].
    destruct (in_slots (slots s) h || is_running s h); [apply (REL_eq s); try reflexivity; exact R|].
    apply (REL_eq (drop_obj s h ob)); try reflexivity. unfold drop_obj. intros o' ob' H. cbn [objs emit set_log set_objs set_en] in H. unfold fupd in H.
    destruct (N.eqb_spec o' h); [discriminate|]. exact (R o' ob' H).
  - unfold do_dropdisp. destruct (objs s h) as [ob|] eqn:Eo; [|apply (REL_eq s); try reflexivity; exact R]. destruct (negb (o_ext ob)); [apply (REL_eq s); try reflexivity; exact R|].
    set (s1 := set_objs s (fupd (objs s) h (Some (mkObj (o_src ob) false)))).
    apply (REL_eq (maybe_drop s1 h)); try reflexivity. apply REL_maybe_drop_after.
    intros o' ob' H Hne. unfold s1 in H. cbn [objs set_objs] in H. unfold fupd in H. destruct (N.eqb_spec o' h); [contradiction|]. exact (R o' ob' H).
  - unfold do_send. destruct (env_send _ _ _) as [e' [rc|]]; apply (REL_eq s); try reflexivity; exact R.
  - unfold do_send. destruct (env_send _ _ _) as [e' [rc|]]; apply (REL_eq s); try reflexivity; exact R.
  - unfold do_cancelidle. destruct (match ridle s with Some r => r =? i | None => false end); apply (REL_eq s); try reflexivity; exact R.
Qed.
Lemma cstep_REL ok h s s' : cstep ok h s s' -> REL s -> REL s'.
Proof.
  destruct 1; intros R; try (apply (REL_eq s); try reflexivity; exact R).
  - apply REL_exec_action. exact R.
  - apply REL_set_obj_src. apply (REL_eq s); try reflexivity. exact R.
  - apply REL_set_obj_src. exact R.
Qed.

(* the end of an event's processing: whatever was only held because it was being processed or queued is released *)
Definition REL0 (s : st) : Prop := forall o ob, objs s o = Some ob -> o_ext ob = true \/ in_slots (slots s) o = true.

(* while nothing is being processed maybe_drop never queues: an object that is still there afterwards was there before, and if it
   is the one maybe_drop was asked about it is held *)
Lemma objs_maybe_drop_idle s z o ob : running s = None -> objs (maybe_drop s z) o = Some ob ->
  objs s o = Some ob /\ (o = z -> o_ext ob = true \/ in_slots (slots s) o = true).
Proof.
  intros Hr H. unfold maybe_drop in H. destruct (objs s z) as [obz|] eqn:Ez.
  2:{ split; [exact H|]. intros ->. congruence. }
  destruct (o_ext obz || in_slots (slots s) z) eqn:E.
  - split; [exact H|]. intros ->. rewrite Ez in H. injection H as <-. apply orb_true_iff in E. exact E.
  - rewrite (is_running_none s z Hr) in H. unfold drop_obj in H. cbn [objs emit set_log set_objs set_en] in H. unfold fupd in H.
    destruct (N.eqb_spec o z) as [->|Hne]; [discriminate|]. split; [exact H|contradiction].
Qed.

Lemma REL0_maybe_drop s o : running s = None -> (forall o' ob, objs s o' = Some ob -> o' <> o -> o_ext ob = true \/ in_slots (slots s) o' = true) -> REL0 (maybe_drop s o).
Proof.
  intros Hr R o' ob H. rewrite slots_maybe_drop. destruct (objs_maybe_drop_idle s o o' ob Hr H) as [H' K].
  destruct (N.eq_dec o' o) as [->|Hne]; [exact (K eq_refl)|exact (R o' ob H' Hne)].
Qed.
(* drop_zombies over a list that covers everything not yet justified *)
Lemma REL0_drop_zombies l : forall s, running s = None ->
  (forall o ob, objs s o = Some ob -> o_ext ob = true \/ in_slots (slots s) o = true \/ In o l) -> REL0 (drop_zombies s l).
Proof.
  induction l as [|z r IH]; intros s Hr R; cbn [drop_zombies].
  - intros o ob H. destruct (R o ob H) as [A|[A|[]]]; [left; exact A|right; exact A].
  - apply IH; [rewrite running_maybe_drop; exact Hr|].
    intros o ob H. rewrite slots_maybe_drop. destruct (objs_maybe_drop_idle s z o ob Hr H) as [H' K].
    destruct (R o ob H') as [A|[A|[A|A]]]; [left; exact A|right; left; exact A| |right; right; exact A].
    destruct (K (eq_sym A)) as [B|B]; [left; exact B|right; left; exact B].
Qed.

(* ---------- one event: uses the lifecycle/slot invariant Q of C14_life2 for "the slot the event's token resolves to holds the
   source being processed or nothing" ---------- *)
Lemma REL_of_REL0 s : REL0 s -> REL s.
Proof. intros R o ob H. destruct (R o ob H) as [A|A]; [left; exact A|right; left; exact A]. Qed.

Definition RELx (s : st) (o : N) : Prop :=
  forall o' ob, objs s o' = Some ob -> o' <> o -> o_ext ob = true \/ in_slots (slots s) o' = true \/ In o' (zombies s).

Lemma RELx_frame s s' o : slots s' = slots s -> zombies s' = zombies s ->
  (forall o' ob', objs s' o' = Some ob' -> exists ob, objs s o' = Some ob /\ o_ext ob = o_ext ob') -> RELx s o -> RELx s' o.
Proof. intros Hs Hz Ho R o' ob' H Hne. destruct (Ho o' ob' H) as [ob [E X]]. rewrite Hs, Hz, <- X. exact (R o' ob E Hne). Qed.


Lemma RELx_apply_post s o reg r : RELx s o ->
  (forall sl, slot_get (slots s) reg = Some sl -> s_obj sl = Some o \/ s_obj sl = None) ->
  RELx (snd (apply_post s o reg r)) o.
Proof.
  intros R Hown. unfold apply_post. destruct r.
  - exact R.
  - pose proof (slots_disp_reregister s o reg) as F1. pose proof (zombies_disp_reregister s o reg) as F2. pose proof (objs_disp_reregister_ext s o reg) as F3.
    destruct (disp_reregister s o reg) as [[rs d] sx]. cbn [snd] in *. apply (RELx_frame s); assumption.
  - pose proof (slots_disp_unregister s o reg) as F1. pose proof (zombies_disp_unregister s o reg) as F2. pose proof (objs_disp_unregister_ext s o reg) as F3.
    destruct (disp_unregister s o reg) as [[rs d] sx]. cbn [snd] in *. apply (RELx_frame s); assumption.
  - cbn [snd]. destruct (slot_get (slots s) reg) as [sl|] eqn:Eg; [|exact R].
    destruct (slot_get_some _ _ _ Eg) as [Hn _].
    intros o' ob H Hne. cbn [objs set_slots] in H. destruct (R o' ob H Hne) as [A|[A|A]]; [left; exact A| |right; right; exact A].
    right; left. cbn [slots set_slots]. unfold slot_set_obj. rewrite Hn. apply in_slots_upd_other; [|exact A].
    intros old Ho. rewrite Hn in Ho. injection Ho as <-. destruct (Hown sl eq_refl) as [X|X]; rewrite X; congruence.
Qed.

Lemma zombies_maybe_drop_idle s o : running s = None -> zombies (maybe_drop s o) = zombies s.
Proof.
  intros Hr. unfold maybe_drop. destruct (objs s o) as [ob|]; [|reflexivity]. destruct (o_ext ob || in_slots (slots s) o); [reflexivity|].
  rewrite (is_running_none s o Hr). reflexivity.
Qed.
Lemma zombies_drop_zombies_idle l : forall s, running s = None -> zombies (drop_zombies s l) = zombies s.
Proof.
  induction l as [|z r IH]; intros s Hr; cbn [drop_zombies]; [reflexivity|].
  rewrite IH by (rewrite running_maybe_drop; exact Hr). apply zombies_maybe_drop_idle. exact Hr.
Qed.

Definition RTOP (s : st) : Prop := halted s = true \/ (REL0 s /\ zombies s = []).

Lemma REL_process_event scr s ev : Q s -> running s = None -> REL0 s -> zombies s = [] ->
  gens_small (slots (fst (process_event scr s ev))) -> RTOP (fst (process_event scr s ev)).
Proof.
  intros Qs Hr R0 Z0. set (reg := forget_sub_id (unpack (ev_key ev))).
  destruct (slot_get (slots s) reg) as [sl|] eqn:Eg; [|unfold process_event; fold reg; rewrite Eg; intros _; right; split; assumption].
  destruct (s_obj sl) as [o|] eqn:Eo; [|unfold process_event; fold reg; rewrite Eg, Eo; intros _; right; split; assumption].
  rewrite (process_event_phases scr s ev sl o Eg Eo). cbv zeta. fold reg.
  set (sr := set_running s (Some (o, reg))).
  assert (Qr : Q sr) by (apply (Q_start s o reg sl); try assumption; reflexivity).
  assert (Rr : REL sr) by exact (REL_of_REL0 sr R0).
  assert (Hrun : is_running sr o = true) by apply is_running_set_running.
  destruct (obj_process_qstep scr sr o ev Hrun) as [RO [_ QO]]. specialize (QO Qr).
  assert (RL : REL (fst (obj_process scr sr o ev))).
  { revert Rr. apply (star_incl (fun a b => REL a -> REL b) (cstep (fun _ => True) o)); [auto|auto|apply cstep_REL|].
    apply obj_process_star; [apply scripts_ok_True|exact Hrun]. }
  destruct (obj_process scr sr o ev) as [s2 ret]. cbn [fst] in *.
  destruct (halted s2) eqn:H2; [intros _; left; exact H2|].
  set (s4 := set_pending (set_running s2 None) Continue).
  pose proof (proj2 (star_sstep _ (lstep_sstep (fun _ => True) o) _ _ (post_phase_star _ s2 o reg ret))) as SS.
  assert (RX : RELx s4 o -> (forall sl', slot_get (slots s4) reg = Some sl' -> s_obj sl' = Some o \/ s_obj sl' = None) ->
          RELx (snd (post_phase s2 o reg ret)) o).
  { intros X Hown. unfold post_phase. destruct ret as [r|]; [apply RELx_apply_post; assumption|exact X]. }
  destruct (post_phase s2 o reg ret) as [ok s5]. cbn [snd] in *.
  destruct (halted s5) eqn:H5; [intros _; left; exact H5|]. cbn [fst]. intros Gf.
  assert (G5 : gens_small (slots s5)).
  { rewrite slots_end_processing in Gf. destruct (slot_vacant_for s5 reg); [rewrite slots_disp_unregister in Gf|]; exact Gf. }
  assert (G2 : gens_small (slots s2)) by (eapply gens_small_mono; [exact SS|exact G5]).
  specialize (QO G2). destruct QO as (L2 & [W2 _] & T2 & U2 & R2).
  assert (Hr2 : running s2 = Some (o, reg)) by (rewrite RO; reflexivity).
  (* s4: nothing runs; everything but o is held by a handle, a slot, or queued *)
  assert (X4 : RELx s4 o).
  { intros o' ob H Hne. destruct (RL o' ob H) as [A|[A|[A|A]]]; [left; exact A|right; left; exact A| |right; right; exact A].
    unfold is_running in A. rewrite Hr2 in A. apply N.eqb_eq in A. congruence. }
  assert (Hown : forall sl', slot_get (slots s4) reg = Some sl' -> s_obj sl' = Some o \/ s_obj sl' = None).
  { intros sl' Hg'. destruct (slot_get_some _ _ _ Hg') as [Hn' Hss']. destruct (R2 o reg Hr2) as (_ & (slr & Rn & _ & Rsame) & _).
    change (slots s4) with (slots s2) in Hn'. rewrite Hn' in Rn. injection Rn as <-.
    apply Rsame. apply (slot_get_gen s2 reg sl' (conj W2 G2) Hn'). exact Hss'. }
  specialize (RX X4 Hown).
  right.
  (* the deferred unregistration does not touch what REL reads *)
  set (s6 := if slot_vacant_for s5 reg then snd (disp_unregister s5 o reg) else s5).
  assert (X6 : RELx s6 o).
  { unfold s6. destruct (slot_vacant_for s5 reg); [|exact RX].
    apply (RELx_frame s5); [apply slots_disp_unregister|apply zombies_disp_unregister|apply objs_disp_unregister_ext|exact RX]. }
  unfold end_processing.
  set (s7 := set_zombies (set_running s6 None) []).
  assert (R7 : running s7 = None) by reflexivity.
  change (drop_zombies (maybe_drop s7 o) (zombies s6)) with (drop_zombies s7 (o :: zombies s6)).
  split.
  - (* o is first in the list that end_processing goes through; everything else was accounted for in s6 *)
    apply REL0_drop_zombies; [exact R7|]. intros o' ob H.
    destruct (N.eq_dec o' o) as [->|Hne]; [right; right; left; reflexivity|].
    destruct (X6 o' ob H Hne) as [A|[A|A]]; [left; exact A|right; left; exact A|right; right; right; exact A].
  - (* maybe_drop only ever queues an object that is being processed; nothing is *)
    rewrite zombies_drop_zombies_idle by exact R7. reflexivity.
Qed.

(* ---------- between events nothing is queued, and actions issued there queue nothing ---------- *)
Lemma REL0_of_REL s : REL s -> running s = None -> zombies s = [] -> REL0 s.
Proof.
  intros R Hr Hz o ob H. destruct (R o ob H) as [A|[A|[A|A]]]; [left; exact A|right; exact A| |rewrite Hz in A; contradiction].
  unfold is_running in A. rewrite Hr in A. discriminate.
Qed.
Lemma astep_zombies_idle a s s' : astep a s s' -> running s = None -> zombies s' = zombies s.
Proof.
  destruct 1; intros Hr; try reflexivity; [apply zombies_disp_register|apply zombies_disp_reregister|apply zombies_disp_unregister|
    apply zombies_maybe_drop_idle; exact Hr|apply zombies_set_obj_src|apply zombies_set_obj_src].
Qed.
Lemma zombies_exec_action_idle s a : running s = None -> zombies (exec_action s a) = zombies s.
Proof.
  apply (astar_incl a (fun r => r = None) (fun a b => zombies b = zombies a)); [reflexivity|intros; congruence|apply astep_zombies_idle|apply exec_action_astar].
Qed.
Lemma REL0_exec_action s a : REL0 s -> running s = None -> zombies s = [] -> REL0 (exec_action s a) /\ zombies (exec_action s a) = [].
Proof.
  intros R Hr Hz. assert (Z : zombies (exec_action s a) = []) by (rewrite zombies_exec_action_idle; assumption).
  split; [|exact Z]. apply REL0_of_REL; [apply REL_exec_action; apply REL_of_REL0; exact R|rewrite running_exec_action; exact Hr|exact Z].
Qed.
Lemma REL0_eq s s' : slots s' = slots s -> objs s' = objs s -> REL0 s -> REL0 s'.
Proof. intros Hs Ho R o ob H. rewrite Hs. rewrite Ho in H. exact (R o ob H). Qed.

Definition FULL (s : st) : Prop := halted s = true \/ (Q s /\ running s = None /\ REL0 s /\ zombies s = []).

Lemma halted_emits l : forall s, halted (emits s l) = halted s.
Proof. intros s. rewrite emits_log. reflexivity. Qed.

Lemma FULL_eq s s' : slots s' = slots s -> lifecycle s' = lifecycle s -> objs s' = objs s -> toks s' = toks s -> running s' = running s ->
  zombies s' = zombies s -> (halted s = true -> halted s' = true) -> FULL s -> FULL s'.
Proof.
  intros Hs Hl Ho Ht Hr Hz Hh [X|(Qs & R & R0 & Z)]; [left; exact (Hh X)|]. right.
  split; [apply (Q_frame_eq s); assumption|]. split; [rewrite Hr; exact R|]. split; [apply (REL0_eq s); assumption|rewrite Hz; exact Z].
Qed.

(* a whole event is Q_process_event with REL_process_event, an action issued between events Q_exec_action with REL0_exec_action;
   the other steps of a dispatch or command write nothing that FULL reads *)
Lemma dstep_FULL ok scr a b : dstep ok scr a b -> gpres FULL a b.
Proof.
  destruct 1 as [s ev Hh|s a _| | | | | | |]; try (apply gpres_frame; [reflexivity|]; apply FULL_eq; auto).
  - split; [apply process_event_sstep|]. intros [X|(Qs & R & R0 & Z)] G; [congruence|].
    destruct (Q_process_event scr s ev Qs R G) as [X|[Q1 R1]]; [left; exact X|].
    destruct (REL_process_event scr s ev Qs R R0 Z G) as [X|[R1' Z1]]; [left; exact X|].
    right. split; [exact Q1|split; [exact R1|split; [exact R1'|exact Z1]]].
  - split; [apply exec_action_sstep|]. intros [X|(Qs & R & R0 & Z)] G; [left; rewrite halted_exec_action_stuck; exact X|].
    destruct (REL0_exec_action s a R0 R Z) as [RA ZA].
    right. split; [apply Q_exec_action; assumption|split; [rewrite running_exec_action; exact R|split; assumption]].
Qed.

Lemma FULL_init : FULL init.
Proof. right. split; [exact Q_init|split; [reflexivity|split; [intros o ob H; discriminate|reflexivity]]]. Qed.

Lemma exec_cmds_FULL scr bscr cmds s : gpres FULL s (fold_left (exec_cmd scr bscr) cmds s).
Proof.
  apply (star_gpres FULL _ (dstep_FULL (fun _ => True) scr)). apply exec_cmds_star; [apply scripts_ok_True|apply cmds_ok_True].
Qed.

Theorem run_FULL scr bscr cmds : gens_small (slots (run scr bscr cmds)) -> FULL (run scr bscr cmds).
Proof. intros G. exact (proj2 (exec_cmds_FULL scr bscr cmds init) FULL_init G). Qed.

(* the statement a user reads: after any history, between top-level operations, every object the loop still stores is either
   in a live slot or kept alive by a handle the user holds; nothing is parked on the zombie list *)
Theorem released_after_any_history scr bscr cmds o ob :
  let s := run scr bscr cmds in
  gens_small (slots s) -> halted s = false -> objs s o = Some ob -> in_slots (slots s) o = false -> o_ext ob = true.
Proof.
  cbv zeta. intros G Hh Ho Hn. destruct (run_FULL scr bscr cmds G) as [X|(_ & _ & R0 & _)]; [congruence|].
  destruct (R0 o ob Ho) as [E|E]; [exact E|congruence].
Qed.
