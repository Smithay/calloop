From CV Require Import Base PostAction Transient.
Open Scope N_scope.

Definition tinv (s : tst) : Prop :=
  all_ok (evs s) = true /\
  match ts s with
  | TKeep c => c_reg c = parent_reg s
  | TRegister c => c_reg c = false /\ parent_reg s = false
  | TDisable c => c_reg c = false
  | TRemove c => c_reg c = parent_reg s /\ (parent_reg s = true -> dirty s = true)
  | TReplace n o => c_reg n = false /\ c_reg o = parent_reg s /\ (parent_reg s = true -> dirty s = true)
  | TNone => True
  end.

Lemma all_ok_app a b : all_ok (a ++ b) = all_ok a && all_ok b.
Proof. unfold all_ok. apply forallb_app. Qed.

Ltac crush :=
  repeat match goal with
         | c : child |- _ => destruct c
         | H : _ /\ _ |- _ => destruct H
         end;
  cbn in *; subst;
  repeat match goal with
         | b : bool |- _ => destruct b
         end;
  cbn in *; rewrite ?N.eqb_refl in *; cbn in *;
  repeat split; intros; try discriminate; try reflexivity; try assumption; try congruence;
  try (match goal with H : true = true -> _ |- _ => specialize (H eq_refl) end; try discriminate; try congruence).

Lemma tinv_step s o :
  tinv s -> f7_state (ts s) = false -> proto_step s o = true -> f7_state (ts (t_step s o)) = false -> tinv (t_step s o).
Proof.
  destruct s as [st p n d ev]. unfold tinv. cbn [ts parent_reg dirty evs next_id].
  intros [Hev Hst] Hf Hp Hf'.
  destruct o as [a| | | | | |a rp]; destruct st as [c|c|c|c|nw od|]; try destruct a; try destruct rp;
    cbn [t_step ts parent_reg dirty evs next_id] in *.
  all: try (split; [exact Hev|exact Hst]).
  all: try solve [crush; rewrite ?all_ok_app, ?Hev; crush].
Qed.

Lemma tinv_init b : tinv (t_init b).
Proof. destruct b; unfold tinv; cbn; repeat split; reflexivity. Qed.

Lemma t_run_inv ops : forall s,
  tinv s -> proto_ok s ops = true -> f7_free s ops = true -> tinv (fold_left t_step ops s).
Proof.
  induction ops as [|o r IH]; intros s Hi Hp Hf; cbn [fold_left]; [exact Hi|].
  cbn [proto_ok f7_free] in Hp, Hf. apply andb_prop in Hp as [Hp1 Hp2]. apply andb_prop in Hf as [Hf1 Hf2].
  apply negb_true_iff in Hf1.
  assert (Hf' : f7_state (ts (t_step s o)) = false).
  { destruct r; cbn [f7_free] in Hf2; apply andb_prop in Hf2 as [A _]; apply negb_true_iff in A; exact A. }
  apply IH; [apply tinv_step; assumption|exact Hp2|exact Hf2].
Qed.

Theorem transient_ok from ops :
  proto_ok (t_init from) ops = true -> f7_free (t_init from) ops = true -> tinv (t_run from ops).
Proof. intros Hp Hf. unfold t_run. apply t_run_inv; [apply tinv_init|exact Hp|exact Hf]. Qed.

(* TransientSource itself only ever returns Continue or Reregister *)
Lemma t_process_ret s a : let '(_, r, _) := t_process s a in r = Continue \/ r = Reregister.
Proof. destruct s; try destruct a; cbn; auto. Qed.
(* events are forwarded only to the child held in Keep; anything else (in particular the empty wrapper) is a no-op *)
Lemma t_process_fwd s a : forall id, In (CFwd id) (snd (t_process s a)) -> exists c, s = TKeep c /\ c_id c = id.
Proof. intros id. destruct s; try destruct a; cbn; intros H; try contradiction; destruct H as [[= <-]|[]]; eexists; split; reflexivity. Qed.
Lemma t_process_not_keep s a : (forall c, s <> TKeep c) -> t_process s a = (s, Continue, []).
Proof. intros H. destruct s; try reflexivity. exfalso. eapply H. reflexivity. Qed.

(* F7: a child that returned Disable is unregistered a second time by the next reregister / unregister of the parent *)
Lemma f7_refuted :
  proto_ok (t_init true) [OpRegister; OpEvent Disable; OpReregister] = true /\
  all_ok (evs (t_run true [OpRegister; OpEvent Disable; OpReregister])) = false /\
  proto_ok (t_init true) [OpRegister; OpEvent Disable; OpUnregister] = true /\
  all_ok (evs (t_run true [OpRegister; OpEvent Disable; OpUnregister])) = false.
Proof. vm_compute. repeat split. Qed.
