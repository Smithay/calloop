(* C08: the only panics an operation issued from a callback (or anywhere) can cause are the documented exclusions. *)
From CV Require Import Base Token Env Loop.
From CVP Require Import Token_proofs Loop_frames.
Open Scope N_scope.

(* ---- sub-id exhaustion needs 65535 sub-sources ---- *)
Lemma ftoken_spec f : t_sub f + 1 < U16 -> ftoken f = Some (f, mkTok (t_id f) (t_ver f) (t_sub f + 1)).
Proof.
  intros Hlt. unfold ftoken, factory_token, increment_sub_id. rewrite mask_subid. change (65535 mod U16) with 65535.
  destruct (N.ltb_spec (t_sub f + 1) U16) as [H|H]; [|lia]. cbn [andb].
  destruct (N.leb_spec (t_sub f + 1) 65535) as [H'|H']; [reflexivity|unfold U16 in *; lia].
Qed.

Lemma subs_register_ok subs : forall e f, t_sub f + N.of_nat (length subs) < U16 ->
  fst (fst (fst (subs_register e subs f))) <> RRPanic /\
  (fst (fst (fst (subs_register e subs f))) = RROk -> t_sub (snd (fst (subs_register e subs f))) = t_sub f + N.of_nat (length subs)).
Proof.
  induction subs as [|g r IH]; intros e f Hb; cbn [subs_register]; [split; [discriminate|cbn; lia]|].
  cbn [length] in Hb. rewrite ftoken_spec by lia.
  destruct (gen_register e g f) as [[ok g'] e']. destruct ok; [|split; cbn; discriminate].
  destruct (IH e' (mkTok (t_id f) (t_ver f) (t_sub f + 1))) as [P Q]; [cbn [t_sub]; lia|]. cbn [t_sub] in Q.
  destruct (subs_register e' r _) as [[[rr' r'] f''] e'']. cbn [fst snd] in *. split; [exact P|]. intros H. rewrite (Q H). cbn [length]. lia.
Qed.
Lemma subs_reregister_ok subs : forall e f, t_sub f + N.of_nat (length subs) < U16 ->
  fst (fst (fst (subs_reregister e subs f))) <> RRPanic /\
  (fst (fst (fst (subs_reregister e subs f))) = RROk -> t_sub (snd (fst (subs_reregister e subs f))) = t_sub f + N.of_nat (length subs)).
Proof.
  induction subs as [|g r IH]; intros e f Hb; cbn [subs_reregister]; [split; [discriminate|cbn; lia]|].
  cbn [length] in Hb. rewrite ftoken_spec by lia.
  destruct (gen_reregister e g f) as [[ok g'] e']. destruct ok; [|split; cbn; discriminate].
  destruct (IH e' (mkTok (t_id f) (t_ver f) (t_sub f + 1))) as [P Q]; [cbn [t_sub]; lia|]. cbn [t_sub] in Q.
  destruct (subs_reregister e' r _) as [[[rr' r'] f''] e'']. cbn [fst snd] in *. split; [exact P|]. intros H. rewrite (Q H). cbn [length]. lia.
Qed.
Lemma timer_register_no_panic e tm f : t_sub f + 1 < U16 -> fst (fst (timer_register e tm f)) <> RRPanic.
Proof.
  intros H1. unfold timer_register. destruct (timer_unregister e tm) as [t1 e1]. destruct (tm_dl t1); [|discriminate].
  rewrite (ftoken_spec _ H1). destruct (wh_insert _ _ _). discriminate.
Qed.
Lemma timer_reregister_no_panic e tm f : t_sub f + 1 < U16 -> fst (fst (timer_reregister e tm f)) <> RRPanic.
Proof.
  intros H1. unfold timer_reregister. destruct (tm_en tm); [|discriminate]. destruct (timer_unregister e tm) as [t1 e1].
  apply timer_register_no_panic. exact H1.
Qed.

Definition small_src (x : src) : Prop :=
  match x with SComp _ _ subs _ => N.of_nat (length subs) + 3 < U16 | _ => True end.

Lemma src_register_no_panic e x t : small_src x -> fst (fst (src_register e x (factory_new t))) <> RRPanic.
Proof.
  intros Hs.
  assert (H1 : t_sub (factory_new t) + 1 < U16) by (change (t_sub (factory_new t)) with 0; unfold U16; lia).
  destruct x as [lc own subs tmr|g|tm|c g]; unfold src_register.
  - rewrite (ftoken_spec _ H1).
    pose proof (subs_register_ok subs e (mkTok (t_id (factory_new t)) (t_ver (factory_new t)) (t_sub (factory_new t) + 1))) as PQ.
    cbn [t_sub] in PQ. change (t_sub (factory_new t)) with 0 in *. unfold small_src in Hs.
    destruct (subs_register e subs _) as [[[r s'] f'] e']. cbn [fst snd] in *.
    destruct PQ as [P Q]; [unfold U16 in *; lia|].
    destruct r; [|cbn; destruct tmr; discriminate|contradiction].
    destruct tmr as [tm|]; [|cbn; discriminate].
    pose proof (timer_register_no_panic e' tm f') as T. rewrite (Q eq_refl) in T.
    destruct (timer_register e' tm f') as [[r2 tm'] e'']. cbn [fst] in *. apply T. unfold U16 in *. lia.
  - rewrite (ftoken_spec _ H1). unfold one_gen. destruct (gen_register _ _ _) as [[ok g'] e']. destruct ok; discriminate.
  - pose proof (timer_register_no_panic e tm _ H1) as T. destruct (timer_register e tm _) as [[r t'] e']. exact T.
  - rewrite (ftoken_spec _ H1). unfold one_gen. destruct (gen_register _ _ _) as [[ok g'] e']. destruct ok; discriminate.
Qed.
Lemma src_reregister_no_panic e x t : small_src x -> fst (fst (src_reregister e x (factory_new t))) <> RRPanic.
Proof.
  intros Hs.
  assert (H1 : t_sub (factory_new t) + 1 < U16) by (change (t_sub (factory_new t)) with 0; unfold U16; lia).
  destruct x as [lc own subs tmr|g|tm|c g]; unfold src_reregister.
  - rewrite (ftoken_spec _ H1).
    pose proof (subs_reregister_ok subs e (mkTok (t_id (factory_new t)) (t_ver (factory_new t)) (t_sub (factory_new t) + 1))) as PQ.
    cbn [t_sub] in PQ. change (t_sub (factory_new t)) with 0 in *. unfold small_src in Hs.
    destruct (subs_reregister e subs _) as [[[r s'] f'] e']. cbn [fst snd] in *.
    destruct PQ as [P Q]; [unfold U16 in *; lia|].
    destruct r; [|cbn; destruct tmr; discriminate|contradiction].
    destruct tmr as [tm|]; [|cbn; discriminate].
    pose proof (timer_reregister_no_panic e' tm f') as T. rewrite (Q eq_refl) in T.
    destruct (timer_reregister e' tm f') as [[r2 tm'] e'']. cbn [fst] in *. apply T. unfold U16 in *. lia.
  - rewrite (ftoken_spec _ H1). unfold one_gen. destruct (gen_reregister _ _ _) as [[ok g'] e']. destruct ok; discriminate.
  - destruct (tm_en tm); [|discriminate]. destruct (timer_unregister e tm) as [t1 e1].
    pose proof (timer_register_no_panic e1 t1 _ H1) as T. destruct (timer_register e1 t1 _) as [[r t'] e']. exact T.
  - rewrite (ftoken_spec _ H1). unfold one_gen. destruct (gen_reregister _ _ _) as [[ok g'] e']. destruct ok; discriminate.
Qed.

(* ---- where the dispatcher-level operations can panic ---- *)
Lemma disp_register_panic s o t :
  halted s = false -> halted (snd (disp_register s o t)) = true ->
  is_running s o = true \/ exists ob, objs s o = Some ob /\ ~ small_src (o_src ob).
Proof.
  intros Hh Hp. unfold disp_register in Hp. destruct (objs s o) as [ob|] eqn:Eo; [|cbn in Hp; congruence].
  destruct (is_running s o) eqn:Er; [left; reflexivity|]. right. exists ob. split; [reflexivity|].
  intros Hs. pose proof (src_register_no_panic (en s) (o_src ob) t Hs) as NP.
  destruct (src_register (en s) (o_src ob) (factory_new t)) as [[r x'] e1]. cbn [fst] in NP.
  destruct r; cbn in Hp; try congruence.
  - destruct (src_lc x'); cbn in Hp; rewrite ?halted_regop, ?halted_set_obj_src in Hp; cbn in Hp; congruence.
  - rewrite ?halted_regop, ?halted_set_obj_src in Hp; cbn in Hp; congruence.
Qed.
Lemma disp_reregister_panic s o t :
  halted s = false -> halted (snd (disp_reregister s o t)) = true ->
  exists ob, objs s o = Some ob /\ ~ small_src (o_src ob).
Proof.
  intros Hh Hp. unfold disp_reregister in Hp. destruct (objs s o) as [ob|] eqn:Eo; [|cbn in Hp; congruence].
  destruct (is_running s o) eqn:Er; [cbn in Hp; congruence|]. exists ob. split; [reflexivity|].
  intros Hs. pose proof (src_reregister_no_panic (en s) (o_src ob) t Hs) as NP.
  destruct (src_reregister (en s) (o_src ob) (factory_new t)) as [[r x'] e1]. cbn [fst] in NP.
  destruct r; cbn in Hp; try congruence.
  - destruct (src_lc x'); cbn in Hp; rewrite ?halted_regop, ?halted_set_obj_src in Hp; cbn in Hp; congruence.
  - rewrite ?halted_regop, ?halted_set_obj_src in Hp; cbn in Hp; congruence.
Qed.

(* the documented exclusions, plus resource exhaustion (65535 sub-sources in one source, 2^32 slots) and the
   scenario-language artefact of inserting a second dispatcher under the id of the running one *)
Definition big (s : st) (o : N) : Prop := exists ob, objs s o = Some ob /\ ~ small_src (o_src ob).
Definition excluded (s : st) (a : action) : Prop :=
  match a with
  | AEnable h => exists t et o, lookup s h = Some (t, et, o) /\ (is_running s o = true \/ big s o)
  | AUpdate h => exists t et o, lookup s h = Some (t, et, o) /\ big s o
  | ASetInt h _ _ _ => is_running s h = true
  | ASetDl h _ => is_running s h = true
  | AIntoInner h => in_slots (slots s) h || is_running s h = true
  | ACancelIdle i => ridle s = Some i
  | AInsert h x => is_running s h = true \/ ~ small_src x \/ vacant_entry (slots s) = None
  | _ => False
  end.

Lemma halted_maybe_drop' s o : halted (maybe_drop s o) = halted s. Proof. apply halted_maybe_drop. Qed.
Lemma halted_disp_unregister' s o t : halted (snd (disp_unregister s o t)) = halted s. Proof. apply halted_disp_unregister. Qed.

Lemma vacant_entry_nth l i sl : vacant_entry l = Some (i, sl) -> exists e, nth_error sl i = Some e.
Proof.
  unfold vacant_entry. destruct (find_vacant l 0) as [j|] eqn:Ef.
  - destruct (nth_error l j) as [x|] eqn:En; [|discriminate]. intros [= <- <-].
    eexists. apply nth_error_upd_same. apply nth_error_Some. congruence.
  - destruct (tok_new _); [|discriminate]. intros [= <- <-]. eexists.
    rewrite nth_error_app2 by lia. rewrite Nat.sub_diag. reflexivity.
Qed.

Theorem exec_action_panic_sites s a :
  halted s = false -> halted (exec_action s a) = true -> excluded s a.
Proof.
  intros Hh Hp. unfold exec_action in Hp. rewrite Hh in Hp. destruct a; cbn [excluded]; cbn in Hp.
  - (* insert *)
    unfold do_insert in Hp. destruct (objs s h) as [obx|] eqn:Eox; [cbn in Hp; congruence|].
    change (slots (set_objs s (fupd (objs s) h (Some (mkObj s0 true))))) with (slots s) in Hp.
    destruct (vacant_entry (slots s)) as [[i sl]|] eqn:Ev; [|right; right; reflexivity].
    destruct (vacant_entry_nth _ _ _ Ev) as [e En]. rewrite En in Hp.
    match type of Hp with context [disp_register ?s1 h ?t] => destruct (disp_register s1 h t) as [r s2] eqn:Ed;
      pose proof (disp_register_panic s1 h t) as P; rewrite Ed in P; cbn [snd] in P end.
    destruct (halted s2) eqn:H2.
    + destruct (P Hh eq_refl) as [R|[ob [Eo Hb]]]; [left; exact R|].
      right; left. cbn in Eo. unfold fupd in Eo. rewrite N.eqb_refl in Eo. injection Eo as <-. exact Hb.
    + destruct r; cbn in Hp; congruence.
  - (* remove *)
    unfold do_remove in Hp. destruct (lookup s h) as [[[t et] o]|]; [|cbn in Hp; congruence].
    destruct (disp_unregister _ o t) as [[r d] s2] eqn:Eu.
    pose proof (halted_disp_unregister (set_slots s (slot_set_obj (slots s) t None)) o t) as HU. rewrite Eu in HU.
    cbn in Hp, HU. rewrite halted_maybe_drop in Hp. congruence.
  - (* disable *)
    unfold do_disable in Hp. destruct (lookup s h) as [[[t et] o]|]; [|cbn in Hp; congruence].
    destruct (disp_unregister s o t) as [[r d] s2] eqn:Eu.
    pose proof (halted_disp_unregister s o t) as HU. rewrite Eu in HU. cbn in HU.
    destruct r; [destruct d|..]; cbn in Hp; congruence.
  - (* enable *)
    unfold do_enable in Hp. destruct (lookup s h) as [[[t et] o]|] eqn:El; [|cbn in Hp; congruence].
    destruct (disp_register s o et) as [r s1] eqn:Ed.
    pose proof (disp_register_panic s o et) as P. rewrite Ed in P. cbn [snd] in P.
    destruct (halted s1) eqn:H1; [|cbn in Hp; congruence].
    exists t, et, o. split; [reflexivity|]. destruct (P Hh eq_refl) as [R|B]; [left; exact R|right; exact B].
  - (* update *)
    unfold do_update in Hp. destruct (lookup s h) as [[[t et] o]|] eqn:El; [|cbn in Hp; congruence].
    destruct (disp_reregister s o et) as [[r d] s1] eqn:Ed.
    pose proof (disp_reregister_panic s o et) as P. rewrite Ed in P. cbn [snd] in P.
    destruct (halted s1) eqn:H1.
    + exists t, et, o. split; [reflexivity|]. exact (P Hh eq_refl).
    + destruct r; [destruct d|..]; cbn in Hp; congruence.
  - (* setint *)
    unfold do_setint in Hp. destruct (objs s h) as [ob|]; [|cbn in Hp; congruence].
    destruct (negb (o_ext ob)); [cbn in Hp; congruence|].
    destruct (is_running s h); [reflexivity|]. destruct (o_src ob); cbn in Hp; rewrite ?halted_set_obj_src in Hp; congruence.
  - (* setdl *)
    unfold do_setdl in Hp. destruct (objs s h) as [ob|]; [|cbn in Hp; congruence].
    destruct (negb (o_ext ob)); [cbn in Hp; congruence|].
    destruct (is_running s h); [reflexivity|]. destruct (o_src ob) as [lc own subs [tm|]|g|tm|c g]; cbn in Hp; rewrite ?halted_set_obj_src in Hp; congruence.
  - (* intoinner *)
    unfold do_intoinner in Hp. destruct (objs s h) as [ob|]; [|cbn in Hp; congruence].
    destruct (negb (o_ext ob)); [cbn in Hp; congruence|].
    destruct (in_slots (slots s) h || is_running s h); [reflexivity|]. cbn in Hp. congruence.
  - (* dropdisp *)
    unfold do_dropdisp in Hp. destruct (objs s h) as [ob|]; [|cbn in Hp; congruence].
    destruct (negb (o_ext ob)); cbn in Hp; rewrite ?halted_maybe_drop in Hp; cbn in Hp; congruence.
  - unfold eenv in Hp; cbn in Hp; congruence.
  - unfold eenv in Hp; cbn in Hp; congruence.
  - unfold eenv in Hp; cbn in Hp; congruence.
  - unfold eenv in Hp; cbn in Hp; congruence.
  - unfold eenv in Hp; cbn in Hp; congruence.
  - unfold do_send in Hp. destruct (env_send _ _ _) as [e' [rc|]]; cbn in Hp; congruence.
  - unfold do_send in Hp. destruct (env_send _ _ _) as [e' [rc|]]; cbn in Hp; congruence.
  - unfold eenv in Hp; cbn in Hp; congruence.
  - unfold eenv in Hp; cbn in Hp; congruence.
  - unfold do_idle in Hp; cbn in Hp; congruence.
  - unfold do_cancelidle in Hp. destruct (ridle s) as [ri|] eqn:Er; [|cbn in Hp; congruence].
    destruct (N.eqb_spec ri i) as [->|]; [reflexivity|cbn in Hp; congruence].
  - unfold eenv in Hp; cbn in Hp; congruence.
  - unfold eenv in Hp; cbn in Hp; congruence.
  - congruence.
Qed.
