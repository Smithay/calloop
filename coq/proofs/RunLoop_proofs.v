From CV Require Import Base RunLoop.
From CVP Require Export RunLoop_inv.

(* wakeup(): the wait in progress ends, otherwise the notification stays for the next wait, which then does not block *)
Lemma notify_sticky s lg : waiting (do_notify s lg) = false /\ (waiting s = true -> pc (do_notify s lg) = L1) /\
  (waiting s = false -> notif (do_notify s lg) = true).
Proof. unfold do_notify, waiting, after_wait. destruct (pc s); cbn; repeat split; intros; try discriminate; reflexivity. Qed.
Lemma wait_with_notification_does_not_block s : pc s = L3 -> notif s = true -> pc (loop_step s) = L1.
Proof. intros Hp Hn. unfold loop_step, after_wait. rewrite Hp, Hn. reflexivity. Qed.

(* stop() then wakeup() after run() began: the loop is told - from such a state it returns after at most the iteration
   in progress, whatever the other threads do meanwhile *)
Definition told (s : rst) : Prop :=
  stopf s = true /\ (match pc s with L0 | LWaiting => False | L2 | L3 => notif s = true | _ => True end).
Lemma stop_then_wakeup_told s lg : stopf s = true -> pc s <> L0 -> told (do_notify s lg).
Proof.
  intros Hs Hp. unfold told, do_notify, after_wait. destruct (pc s) eqn:E; cbn; try (split; [exact Hs|]; try reflexivity; try exact I); try congruence.
Qed.
Lemma told_stable s k : told s -> told (r_step s k) \/ exists b, pc (r_step s k) = LDone b.
Proof.
  intros [Hs Hp]. destruct k as [|i]; cbn [r_step].
  - unfold loop_step, after_wait, told. destruct (pc s) eqn:E; try contradiction.
    + rewrite Hs. right. eexists. reflexivity.
    + destruct (readyf s); [destruct (fut s) as [|n r]; [|destruct n as [|[[| |]|[| |]|]]]|]; cbn; try (right; eexists; reflexivity); left; (split; [exact Hs|try exact Hp; try exact I]).
    + left. cbn. split; [exact Hs|exact I].
    + left. cbn. split; [exact Hs|reflexivity].
    + rewrite Hp. left. cbn. split; [exact Hs|exact I].
    + right. eexists. exact E.
  - (* a thread's step leaves pc alone unless it is a notify, and told excludes a waiting loop *)
    destruct (nth_error (rthr s) i) as [[ops stg]|]; [|left; split; assumption]. left.
    assert (Hn : forall lg l, told (set_rthr (do_notify s lg) l)).
    { intros lg l. apply (stop_then_wakeup_told s lg Hs). intros E. rewrite E in Hp. exact Hp. }
    unfold rt_step. cbn [rt_stage rt_ops]. destruct stg; [destruct ops as [|[] r]|..]; try apply Hn; (split; [assumption || reflexivity|exact Hp]).
Qed.
(* ... and the loop thread itself needs at most five of its own steps: (the self-waking poll's store and notify ->) swap ->
   wait returns at once -> flag check -> return *)
Lemma iter_succ_r' {A} n (f : A -> A) x : Nat.iter (S n) f x = Nat.iter n f (f x).
Proof. induction n as [|n IH]; [reflexivity|]. change (f (Nat.iter (S n) f x) = f (Nat.iter n f (f x))). f_equal. exact IH. Qed.
Definition lrank (p : lpc) : nat :=
  match p with LDone _ => 0 | L1 => 1 | L3 => 2 | L2b => 3 | L2a => 4 | L2 => 5 | _ => 6 end.
Lemma done_stays s b : pc s = LDone b -> pc (loop_step s) = LDone b.
Proof. intros E. unfold loop_step. rewrite E. exact E. Qed.
Lemma told_rank s : told s -> (exists b, pc s = LDone b) \/ (lrank (pc (loop_step s)) < lrank (pc s))%nat.
Proof.
  intros [Hs Hp]. unfold loop_step, after_wait. destruct (pc s) eqn:E; try contradiction.
  - right. rewrite Hs. cbn. lia.
  - right. destruct (readyf s); [destruct (fut s) as [|n r]; [|destruct n as [|[[| |]|[| |]|]]]|]; cbn; lia.
  - right. cbn. lia.
  - right. cbn. lia.
  - right. rewrite Hp. cbn. lia.
  - left. eexists. reflexivity.
Qed.
Lemma done_iter m : forall s b, pc s = LDone b -> pc (Nat.iter m loop_step s) = LDone b.
Proof. induction m as [|m IHm]; intros s b Hb; [exact Hb|]. rewrite iter_succ_r'. apply IHm. apply done_stays. exact Hb. Qed.
Lemma told_iter n : forall s, told s -> (lrank (pc s) <= n)%nat -> exists b, pc (Nat.iter n loop_step s) = LDone b.
Proof.
  induction n as [|n IH]; intros s Ht Hr.
  - destruct (pc s) as [| | | | | | |b] eqn:E; cbn in Hr; try lia. exists b. exact E.
  - destruct (told_rank s Ht) as [[b Hb]|Hlt].
    + exists b. apply done_iter. exact Hb.
    + rewrite iter_succ_r'. destruct (told_stable s 0%nat Ht) as [Ht'|[b Hb]]; cbn [r_step] in *.
      * apply IH; [exact Ht'|]. lia.
      * exists b. apply done_iter. exact Hb.
Qed.
Lemma iter5 {A} (f : A -> A) x : Nat.iter 5 f x = f (f (f (f (f x)))).
Proof. reflexivity. Qed.
Lemma told_returns s : told s -> exists b, pc (loop_step (loop_step (loop_step (loop_step (loop_step s))))) = LDone b.
Proof.
  intros Ht. assert (Hr : (lrank (pc s) <= 5)%nat).
  { destruct Ht as [_ Hp]. destruct (pc s); try contradiction; cbn; lia. }
  destruct (told_iter 5 s Ht Hr) as [b Hb]. exists b. rewrite (iter5 loop_step s) in Hb. exact Hb.
Qed.
(* run() never returns Ok (block_on never returns None) without a stop request since it began *)
Lemma no_spurious_return s : rinv s -> pc s = LDone false -> stop_req s = true.
Proof. intros (_ & _ & C & _) H. apply (C false H eq_refl). Qed.
