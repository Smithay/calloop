(* C16 for whole loops, one direction: NOTHING STALE. In every state a scenario reaches, every fd in the poller's table is owned by
   a sub-source (Generic) of an object that still exists, and that Generic has recorded the poller (so its Drop /
   unwrap will delete the fd). Holds with shared fds and failed registrations. *)
From CV Require Import Base Token Env Loop.
From CVP Require Import Loop_frames Env_lemmas Loop_walk.
Open Scope N_scope.

Definition has (e : env) (fd : N) : bool := match ep_find (epoll e) fd with Some _ => true | None => false end.
Definition thas (tbl : list epent) (fd : N) : bool := match ep_find tbl fd with Some _ => true | None => false end.
Lemma has_thas e fd : has e fd = thas (epoll e) fd. Proof. reflexivity. Qed.

Lemma thas_map_keepfd (f : epent -> epent) tbl fd : (forall e, e_fd (f e) = e_fd e) -> thas (map f tbl) fd = thas tbl fd.
Proof.
  intros H. unfold thas. induction tbl as [|x t IH]; cbn; [reflexivity|]. rewrite H.
  destruct (e_fd x =? fd); [reflexivity|exact IH].
Qed.
Lemma thas_ep_wake tbl fd b fd' : thas (ep_wake tbl fd b) fd' = thas tbl fd'.
Proof. unfold ep_wake. apply thas_map_keepfd. intros e. destruct (_ && _ && _); reflexivity. Qed.
Lemma e_fd_ep_after fdc e : e_fd (ep_after fdc e) = e_fd e.
Proof. unfold ep_after. destruct (e_mode e); try reflexivity. destruct (ep_report fdc e); reflexivity. Qed.
Lemma thas_ep_wait fdc tbl fd : thas (snd (ep_wait fdc tbl)) fd = thas tbl fd.
Proof.
  unfold thas. induction tbl as [|x t IH]; cbn; [reflexivity|]. destruct (ep_wait fdc t) as [evs t']. cbn [snd] in *. cbn.
  rewrite e_fd_ep_after. destruct (e_fd x =? fd); [reflexivity|exact IH].
Qed.
Lemma has_fd_write e fd v fd' : has (fd_write e fd v) fd' = has e fd'.
Proof. unfold fd_write. destruct (efd_write _ _); [|reflexivity]. unfold has. cbn. apply thas_ep_wake. Qed.
Lemma has_fd_read e fd fd' : has (fst (fd_read e fd)) fd' = has e fd'.
Proof. unfold fd_read. destruct (fdc e fd =? 0); [reflexivity|]. unfold has. cbn. apply thas_ep_wake. Qed.
Lemma has_poll e t order fd : has (snd (poll e t order)) fd = has e fd.
Proof.
  unfold poll. pose proof (thas_ep_wait (fdc e) (epoll e) fd) as W. destruct (ep_wait (fdc e) (epoll e)) as [fdev tbl]. cbn [snd] in W.
  destruct (wh_expire _ _ _) as [ex rest]. cbn [snd]. unfold has. cbn. exact W.
Qed.

Definition gcov (g : gen) (fd : N) : Prop := g_fd g = fd /\ g_poller g = true.
Lemma thas_add tbl fd it m key c tbl' fd' : ep_add tbl fd it m key c = Some tbl' -> thas tbl' fd' = (thas tbl fd' || (fd =? fd')).
Proof.
  intros H. pose proof (ep_add_spec tbl fd it m key c) as S. rewrite H in S. destruct S as (Hn & [q Hq] & Ho). unfold thas.
  destruct (N.eqb_spec fd fd') as [<-|Hne]; [rewrite Hq, Hn; reflexivity|]. rewrite Ho by congruence. rewrite orb_false_r. reflexivity.
Qed.
Lemma thas_del tbl fd tbl' fd' : ep_del tbl fd = Some tbl' -> thas tbl' fd' = (thas tbl fd' && negb (fd =? fd')).
Proof.
  intros H. destruct (ep_del_spec tbl fd tbl' H) as (Hg & Ho). unfold thas.
  destruct (N.eqb_spec fd fd') as [<-|Hne]; [rewrite Hg; destruct (ep_find tbl fd); reflexivity|]. rewrite Ho by congruence. rewrite andb_true_r. reflexivity.
Qed.
Lemma thas_mod tbl fd it m key c tbl' fd' : ep_mod tbl fd it m key c = Some tbl' -> thas tbl' fd' = thas tbl fd'.
Proof.
  unfold ep_mod. destruct (ep_find tbl fd) eqn:E; [|discriminate]. intros [= <-]. unfold thas. rewrite ep_find_replace. cbn.
  destruct (N.eqb_spec fd fd') as [<-|]; [rewrite E; reflexivity|reflexivity].
Qed.

Lemma gen_register_has e g t ok g' e' : gen_register e g t = (ok, g', e') ->
  g_fd g' = g_fd g /\ (forall fd, has e' fd = (has e fd || (ok && (g_fd g =? fd)))) /\
  (ok = true -> g_poller g' = true) /\ (ok = false -> g' = g).
Proof.
  unfold gen_register. destruct (ep_add _ _ _ _ _ _) as [tbl|] eqn:E; intros [= <- <- <-]; cbn.
  - split; [reflexivity|]. split; [intros fd; unfold has; cbn; apply (thas_add _ _ _ _ _ _ _ fd E)|]. split; [reflexivity|discriminate].
  - split; [reflexivity|]. split; [intros fd; rewrite orb_false_r; reflexivity|]. split; [discriminate|reflexivity].
Qed.
Lemma gen_reregister_has e g t ok g' e' : gen_reregister e g t = (ok, g', e') ->
  g_fd g' = g_fd g /\ g_poller g' = g_poller g /\ (forall fd, has e' fd = has e fd).
Proof.
  unfold gen_reregister. destruct (ep_mod _ _ _ _ _ _) as [tbl|] eqn:E; intros [= <- <- <-]; cbn.
  - split; [reflexivity|]. split; [reflexivity|]. intros fd. unfold has. cbn. apply (thas_mod _ _ _ _ _ _ _ fd E).
  - repeat split.
Qed.
Lemma gen_unregister_has e g ok g' e' : gen_unregister e g = (ok, g', e') ->
  g_fd g' = g_fd g /\ (forall fd, has e' fd = (has e fd && negb (ok && (g_fd g =? fd)))) /\ (ok = false -> g' = g).
Proof.
  unfold gen_unregister. destruct (ep_del _ _) as [tbl|] eqn:E; intros [= <- <- <-]; cbn.
  - split; [reflexivity|]. split; [intros fd; unfold has; cbn; apply (thas_del _ _ _ fd E)|discriminate].
  - split; [reflexivity|]. split; [intros fd; rewrite andb_true_r; reflexivity|reflexivity].
Qed.
Lemma gen_drop_has e g fd : has (gen_drop e g) fd = (has e fd && negb (g_poller g && (g_fd g =? fd) && has e (g_fd g))) .
Proof.
  unfold gen_drop. destruct (g_poller g); cbn; [|rewrite andb_true_r; reflexivity].
  destruct (ep_del (epoll e) (g_fd g)) as [tbl|] eqn:E.
  - assert (X : has e (g_fd g) = true) by (unfold ep_del in E; unfold has; destruct (ep_find (epoll e) (g_fd g)); [reflexivity|discriminate]).
    rewrite X, andb_true_r. pose proof (thas_del _ _ _ fd E) as D. unfold has at 1. cbn [epoll set_epoll]. fold (thas tbl fd). rewrite D. reflexivity.
  - assert (X : has e (g_fd g) = false) by (unfold ep_del in E; unfold has; destruct (ep_find (epoll e) (g_fd g)); [discriminate|reflexivity]).
    rewrite X, andb_false_r. cbn. rewrite andb_true_r. reflexivity.
Qed.

Definition lcov (l : list gen) (fd : N) : Prop := exists g, In g l /\ gcov g fd.
Definition gens_of (x : src) : list gen := match x with SComp _ _ subs _ => subs | SPing g => [g] | SChan _ g => [g] | STimer _ => [] end.
Definition scov (x : src) (fd : N) : Prop := lcov (gens_of x) fd.
(* the effect of an operation on one object's source: every fd in the table afterwards was there before or is covered by the new
   source; and whatever the old source covered and is still in the table is covered by the new one *)
Definition LOK (e : env) (l : list gen) (e' : env) (l' : list gen) : Prop :=
  (forall fd, has e' fd = true -> has e fd = true \/ lcov l' fd) /\ (forall fd, lcov l fd -> has e' fd = true -> lcov l' fd).
Lemma LOK_refl e l : LOK e l e l.
Proof. split; [intros fd H; left; exact H|intros fd H _; exact H]. Qed.
Lemma lcov_cons g l fd : lcov (g :: l) fd <-> gcov g fd \/ lcov l fd.
Proof.
  split.
  - intros [x [[<-|Hi] Hc]]; [left; exact Hc|right; exists x; split; assumption].
  - intros [Hc|[x [Hi Hc]]]; [exists g; split; [left; reflexivity|exact Hc]|exists x; split; [right; exact Hi|exact Hc]].
Qed.

Lemma subs_register_LOK subs : forall e f r subs' f' e', subs_register e subs f = (r, subs', f', e') -> LOK e subs e' subs'.
Proof.
  induction subs as [|g rest IH]; intros e f r subs' f' e' H; cbn in H; [injection H as <- <- <- <-; apply LOK_refl|].
  destruct (ftoken f) as [[t f1]|]; [|injection H as <- <- <- <-; apply LOK_refl].
  destruct (gen_register e g t) as [[ok g1] e1] eqn:G. destruct (gen_register_has _ _ _ _ _ _ G) as (Hfd & Hh & Hp & Hf).
  destruct ok.
  - destruct (subs_register e1 rest f1) as [[[r2 rest'] f2] e2] eqn:R. injection H as <- <- <- <-. destruct (IH _ _ _ _ _ _ R) as [A B].
    split.
    + intros fd H2. destruct (A fd H2) as [H1|Hc]; [|right; apply lcov_cons; right; exact Hc].
      rewrite Hh in H1. apply orb_prop in H1. destruct H1 as [H0|Heq]; [left; exact H0|].
      right. apply lcov_cons. left. split; [rewrite Hfd; apply N.eqb_eq; exact Heq|apply Hp; reflexivity].
    + intros fd Hc H2. apply lcov_cons in Hc. apply lcov_cons. destruct Hc as [[Gf Gp]|Hc]; [left; split; [congruence|apply Hp; reflexivity]|right; apply B; assumption].
  - injection H as <- <- <- <-. rewrite (Hf eq_refl). split.
    + intros fd H2. rewrite Hh in H2. cbn in H2. rewrite orb_false_r in H2. left. exact H2.
    + intros fd Hc _. exact Hc.
Qed.
Lemma subs_reregister_LOK subs : forall e f r subs' f' e', subs_reregister e subs f = (r, subs', f', e') -> LOK e subs e' subs'.
Proof.
  induction subs as [|g rest IH]; intros e f r subs' f' e' H; cbn in H; [injection H as <- <- <- <-; apply LOK_refl|].
  destruct (ftoken f) as [[t f1]|]; [|injection H as <- <- <- <-; apply LOK_refl].
  destruct (gen_reregister e g t) as [[ok g1] e1] eqn:G. destruct (gen_reregister_has _ _ _ _ _ _ G) as (Hfd & Hp & Hh).
  assert (Gc : forall fd, gcov g fd -> gcov g1 fd) by (intros fd [A B]; split; congruence).
  destruct ok.
  - destruct (subs_reregister e1 rest f1) as [[[r2 rest'] f2] e2] eqn:R. injection H as <- <- <- <-. destruct (IH _ _ _ _ _ _ R) as [A B].
    split.
    + intros fd H2. destruct (A fd H2) as [H1|Hc]; [left; rewrite <- Hh; exact H1|right; apply lcov_cons; right; exact Hc].
    + intros fd Hc H2. apply lcov_cons in Hc. apply lcov_cons. destruct Hc as [Hc|Hc]; [left; apply Gc; exact Hc|right; apply B; assumption].
  - injection H as <- <- <- <-. split.
    + intros fd H2. left. rewrite <- Hh. exact H2.
    + intros fd Hc _. apply lcov_cons in Hc. apply lcov_cons. destruct Hc as [Hc|Hc]; [left; apply Gc; exact Hc|right; exact Hc].
Qed.
(* unregistering only removes fds *)
Lemma subs_unregister_LOK subs : forall e ok subs' e', subs_unregister e subs = (ok, subs', e') ->
  LOK e subs e' subs' /\ (forall fd, has e' fd = true -> has e fd = true).
Proof.
  induction subs as [|g rest IH]; intros e ok subs' e' H; cbn in H; [injection H as <- <- <-; split; [apply LOK_refl|auto]|].
  destruct (gen_unregister e g) as [[ok1 g1] e1] eqn:G. destruct (gen_unregister_has _ _ _ _ _ G) as (Hfd & Hh & Hf).
  destruct ok1.
  - destruct (subs_unregister e1 rest) as [[r2 rest'] e2] eqn:R. injection H as <- <- <-. destruct (IH _ _ _ _ R) as [[A B] M].
    assert (M1 : forall fd, has e1 fd = true -> has e fd = true /\ g_fd g <> fd).
    { intros fd H1. rewrite Hh in H1. apply andb_prop in H1. destruct H1 as [H0 Hn]. split; [exact H0|]. cbn in Hn. intros E. apply N.eqb_eq in E. rewrite E in Hn. discriminate. }
    split; [split|].
    + intros fd H2. left. apply M1. apply M. exact H2.
    + intros fd Hc H2. apply lcov_cons in Hc. apply lcov_cons. destruct Hc as [[Gf _]|Hc]; [exfalso; apply (proj2 (M1 fd (M fd H2))); exact Gf|right; apply B; assumption].
    + intros fd H2. apply M1. apply M. exact H2.
  - injection H as <- <- <-. rewrite (Hf eq_refl).
    assert (E : forall fd, has e1 fd = has e fd) by (intros fd; rewrite Hh; cbn; rewrite andb_true_r; reflexivity).
    split; [split|].
    + intros fd H2. left. rewrite <- E. exact H2.
    + intros fd Hc _. exact Hc.
    + intros fd H2. rewrite <- E. exact H2.
Qed.

Lemma epoll_timer_unregister e t : epoll (snd (timer_unregister e t)) = epoll e.
Proof. unfold timer_unregister. destruct (tm_reg t) as [[tk c]|]; reflexivity. Qed.
Lemma epoll_timer_register e t f : epoll (snd (timer_register e t f)) = epoll e.
Proof.
  unfold timer_register. pose proof (epoll_timer_unregister e t) as U. destruct (timer_unregister e t) as [t1 e1]. cbn [snd] in U.
  destruct (tm_dl t1) as [dl|]; [|exact U]. destruct (ftoken f) as [[tk f']|]; [|exact U].
  destruct (wh_insert (whl e1) dl tk) as [w c]. cbn. exact U.
Qed.

Definition SOK (e : env) (x : src) (e' : env) (x' : src) : Prop := LOK e (gens_of x) e' (gens_of x').
Lemma has_eq_LOK e e' l : (forall fd, has e' fd = has e fd) -> LOK e l e' l.
Proof. intros E. split; [intros fd H; left; rewrite <- E; exact H|intros fd H _; exact H]. Qed.
Lemma LOK_env_eq e l e1 l' e2 : (forall fd, has e2 fd = has e1 fd) -> LOK e l e1 l' -> LOK e l e2 l'.
Proof. intros E [A B]. split; [intros fd H; apply A; rewrite <- E; exact H|intros fd Hc H; apply B; [exact Hc|rewrite <- E; exact H]]. Qed.
Lemma has_of_epoll e e' : epoll e' = epoll e -> forall fd, has e' fd = has e fd.
Proof. intros E fd. unfold has. rewrite E. reflexivity. Qed.

Lemma one_gen_reg_SOK e g t k r x' e' : (forall g0, gens_of (k g0) = [g0]) -> one_gen (gen_register e g t) k = (r, x', e') -> SOK e (k g) e' x'.
Proof.
  intros Hk H. unfold one_gen in H. destruct (gen_register e g t) as [[ok g1] e1] eqn:G. injection H as <- <- <-.
  unfold SOK. rewrite !Hk.
  destruct (gen_register_has _ _ _ _ _ _ G) as (Hfd & Hh & Hp & Hf). split.
  - intros fd H2. rewrite Hh in H2. apply orb_prop in H2. destruct H2 as [H0|H1]; [left; exact H0|].
    apply andb_prop in H1. destruct H1 as [Ok Eq]. right. exists g1. split; [left; reflexivity|split; [rewrite Hfd; apply N.eqb_eq; exact Eq|apply Hp; exact Ok]].
  - intros fd [g0 [[<-|[]] [Gf Gp]]] _. exists g1. split; [left; reflexivity|]. destruct ok; [split; [congruence|apply Hp; reflexivity]|rewrite (Hf eq_refl); split; assumption].
Qed.
Lemma one_gen_rereg_SOK e g t k r x' e' : (forall g0, gens_of (k g0) = [g0]) -> one_gen (gen_reregister e g t) k = (r, x', e') -> SOK e (k g) e' x'.
Proof.
  intros Hk H. unfold one_gen in H. destruct (gen_reregister e g t) as [[ok g1] e1] eqn:G. injection H as <- <- <-.
  unfold SOK. rewrite !Hk. destruct (gen_reregister_has _ _ _ _ _ _ G) as (Hfd & Hp & Hh). split.
  - intros fd H2. left. rewrite <- Hh. exact H2.
  - intros fd [g0 [[<-|[]] [Gf Gp]]] _. exists g1. split; [left; reflexivity|split; congruence].
Qed.

Lemma src_register_SOK e x f r x' e' : src_register e x f = (r, x', e') -> SOK e x e' x'.
Proof.
  intros H. destruct x as [lc own subs tmr|g|tm|c g]; cbn [src_register] in H.
  - destruct (ftoken f) as [[t f1]|]; [|injection H as <- <- <-; apply LOK_refl].
    destruct (subs_register e subs f1) as [[[r1 subs'] f2] e1] eqn:R. pose proof (subs_register_LOK _ _ _ _ _ _ _ R) as L.
    destruct r1; destruct tmr as [tm|]; try (injection H as <- <- <-; exact L).
    pose proof (epoll_timer_register e1 tm f2) as T. destruct (timer_register e1 tm f2) as [[r2 tm'] e2]. cbn [snd] in T. injection H as <- <- <-.
    unfold SOK. cbn [gens_of]. eapply LOK_env_eq; [apply has_of_epoll; exact T|exact L].
  - destruct (ftoken f) as [[t f1]|]; [|injection H as <- <- <-; apply LOK_refl]. eapply (one_gen_reg_SOK e g t SPing); [reflexivity|exact H].
  - pose proof (epoll_timer_register e tm f) as T. destruct (timer_register e tm f) as [[r2 tm'] e2]. cbn [snd] in T. injection H as <- <- <-.
    unfold SOK. cbn [gens_of]. apply has_eq_LOK. apply has_of_epoll. exact T.
  - destruct (ftoken f) as [[t f1]|]; [|injection H as <- <- <-; apply LOK_refl]. eapply (one_gen_reg_SOK e g t (SChan c)); [reflexivity|exact H].
Qed.

Lemma epoll_timer_reregister e t f : epoll (snd (timer_reregister e t f)) = epoll e.
Proof.
  unfold timer_reregister. destruct (tm_en t); [|reflexivity]. pose proof (epoll_timer_unregister e t) as U.
  destruct (timer_unregister e t) as [t1 e1]. cbn [snd] in U. rewrite epoll_timer_register. exact U.
Qed.
Lemma src_reregister_SOK e x f r x' e' : src_reregister e x f = (r, x', e') -> SOK e x e' x'.
Proof.
  intros H. destruct x as [lc own subs tmr|g|tm|c g]; cbn [src_reregister] in H.
  - destruct (ftoken f) as [[t f1]|]; [|injection H as <- <- <-; apply LOK_refl].
    destruct (subs_reregister e subs f1) as [[[r1 subs'] f2] e1] eqn:R. pose proof (subs_reregister_LOK _ _ _ _ _ _ _ R) as L.
    destruct r1; destruct tmr as [tm|]; try (injection H as <- <- <-; exact L).
    pose proof (epoll_timer_reregister e1 tm f2) as T. destruct (timer_reregister e1 tm f2) as [[r2 tm'] e2]. cbn [snd] in T. injection H as <- <- <-.
    unfold SOK. cbn [gens_of]. eapply LOK_env_eq; [apply has_of_epoll; exact T|exact L].
  - destruct (ftoken f) as [[t f1]|]; [|injection H as <- <- <-; apply LOK_refl]. eapply (one_gen_rereg_SOK e g t SPing); [reflexivity|exact H].
  - assert (T : epoll e' = epoll e /\ gens_of x' = []).
    { destruct (tm_en tm).
      - pose proof (epoll_timer_unregister e tm) as U. destruct (timer_unregister e tm) as [t1 e1]. cbn [snd] in U.
        pose proof (epoll_timer_register e1 t1 f) as T. destruct (timer_register e1 t1 f) as [[r2 tm'] e2]. cbn [snd] in T. injection H as <- <- <-.
        split; [congruence|reflexivity].
      - injection H as <- <- <-. split; reflexivity. }
    destruct T as [T1 T2]. unfold SOK. rewrite T2. cbn [gens_of]. apply has_eq_LOK. apply has_of_epoll. exact T1.
  - destruct (ftoken f) as [[t f1]|]; [|injection H as <- <- <-; apply LOK_refl]. eapply (one_gen_rereg_SOK e g t (SChan c)); [reflexivity|exact H].
Qed.

Lemma src_unregister_SOK e x ok x' e' : src_unregister e x = (ok, x', e') -> SOK e x e' x'.
Proof.
  intros H. destruct x as [lc own subs tmr|g|tm|c g]; cbn [src_unregister] in H.
  - destruct (subs_unregister e subs) as [[ok1 subs'] e1] eqn:R. destruct (subs_unregister_LOK _ _ _ _ _ R) as [L _].
    destruct ok1; destruct tmr as [tm|]; try (injection H as <- <- <-; exact L).
    pose proof (epoll_timer_unregister e1 tm) as T. destruct (timer_unregister e1 tm) as [tm' e2]. cbn [snd] in T. injection H as <- <- <-.
    unfold SOK. cbn [gens_of]. eapply LOK_env_eq; [apply has_of_epoll; exact T|exact L].
  - destruct (gen_unregister e g) as [[ok1 g1] e1] eqn:G. injection H as <- <- <-.
    assert (R : subs_unregister e [g] = (ok1, [g1], e1)) by (cbn; rewrite G; destruct ok1; reflexivity).
    destruct (subs_unregister_LOK _ _ _ _ _ R) as [L _]. exact L.
  - pose proof (epoll_timer_unregister e tm) as T. destruct (timer_unregister e tm) as [tm' e2]. cbn [snd] in T. injection H as <- <- <-.
    unfold SOK. cbn [gens_of]. apply has_eq_LOK. apply has_of_epoll. exact T.
  - destruct (gen_unregister e g) as [[ok1 g1] e1] eqn:G. injection H as <- <- <-.
    assert (R : subs_unregister e [g] = (ok1, [g1], e1)) by (cbn; rewrite G; destruct ok1; reflexivity).
    destruct (subs_unregister_LOK _ _ _ _ _ R) as [L _]. exact L.
Qed.

(* dropping a source: only removes fds, and nothing it covered is left *)
Lemma fold_gen_drop_has l : forall e fd, has (fold_left gen_drop l e) fd = true -> has e fd = true /\ ~ lcov l fd.
Proof.
  induction l as [|g r IH]; intros e fd H; cbn [fold_left] in H; [split; [exact H|intros [x [[] _]]]|].
  destruct (IH _ _ H) as [H1 Nc]. rewrite gen_drop_has in H1. apply andb_prop in H1. destruct H1 as [H0 Hn].
  split; [exact H0|]. intros Hc. apply lcov_cons in Hc. destruct Hc as [[Gf Gp]|Hc]; [|exact (Nc Hc)].
  rewrite Gp, Gf, N.eqb_refl, H0 in Hn. discriminate.
Qed.
Lemma src_drop_has e x fd : has (src_drop e x) fd = true -> has e fd = true /\ ~ scov x fd.
Proof.
  unfold scov. destruct x as [lc own subs tmr|g|tm|c g]; cbn [src_drop gens_of].
  - apply fold_gen_drop_has.
  - intros H. apply (fold_gen_drop_has [g] e fd). exact H.
  - intros H. split; [exact H|intros [x [[] _]]].
  - intros H. apply (fold_gen_drop_has [g] e fd). cbn [fold_left].
    destruct (chans (gen_drop e g) c); [|exact H]. exact H.
Qed.

Definition owner (s : st) (fd : N) : Prop := exists o ob, objs s o = Some ob /\ scov (o_src ob) fd.
Definition EPI (s : st) : Prop := forall fd, has (en s) fd = true -> owner s fd.

Lemma EPI_frame s s' : (forall fd, has (en s') fd = has (en s) fd) -> objs s' = objs s -> EPI s -> EPI s'.
Proof. intros E O H fd Hf. rewrite E in Hf. destruct (H fd Hf) as (o & ob & Ho & Hc). exists o, ob. rewrite O. split; assumption. Qed.
Lemma EPI_same s s' : en s' = en s -> objs s' = objs s -> EPI s -> EPI s'.
Proof. intros E O. apply EPI_frame; [intros fd; rewrite E; reflexivity|exact O]. Qed.

(* the source of object o is replaced by the result of an operation that is SOK *)
Lemma EPI_set_src s o ob e' x' : objs s o = Some ob -> SOK (en s) (o_src ob) e' x' -> EPI s -> EPI (set_obj_src (set_en s e') o x').
Proof.
  intros Ho [A B] H fd Hf.
  assert (En : en (set_obj_src (set_en s e') o x') = e') by (unfold set_obj_src; cbn; rewrite Ho; reflexivity). rewrite En in Hf.
  assert (Oo : objs (set_obj_src (set_en s e') o x') o = Some (mkObj x' (o_ext ob))) by (unfold set_obj_src; cbn; rewrite Ho; cbn; unfold fupd; rewrite N.eqb_refl; reflexivity).
  destruct (A fd Hf) as [H0|Hc]; [|exists o, (mkObj x' (o_ext ob)); split; [exact Oo|exact Hc]].
  destruct (H fd H0) as (o1 & ob1 & Ho1 & Hc1). destruct (N.eq_dec o1 o) as [->|Hne].
  - rewrite Ho in Ho1. injection Ho1 as <-. exists o, (mkObj x' (o_ext ob)). split; [exact Oo|]. apply B; assumption.
  - exists o1, ob1. split; [rewrite objs_set_obj_src_other by exact Hne; exact Ho1|exact Hc1].
Qed.

Lemma EPI_disp_register s o t : EPI s -> EPI (snd (disp_register s o t)).
Proof.
  intros H. unfold disp_register. destruct (objs s o) as [ob|] eqn:Ho; [|exact H]. destruct (is_running s o); [apply (EPI_same s); [reflexivity|reflexivity|exact H]|].
  destruct (src_register (en s) (o_src ob) (factory_new t)) as [[r x'] e1] eqn:R. pose proof (src_register_SOK _ _ _ _ _ _ R) as S.
  pose proof (EPI_set_src s o ob e1 x' Ho S H) as H2.
  destruct r; cbn [snd]; try destruct (src_lc x'); (eapply EPI_same; [| |exact H2]); cbn [en objs set_lifecycle panic set_halted emit set_log]; rewrite ?en_regop, ?objs_regop; reflexivity.
Qed.
Lemma EPI_disp_reregister s o t : EPI s -> EPI (snd (disp_reregister s o t)).
Proof.
  intros H. unfold disp_reregister. destruct (objs s o) as [ob|] eqn:Ho; [|exact H]. destruct (is_running s o); [exact H|].
  destruct (src_reregister (en s) (o_src ob) (factory_new t)) as [[r x'] e1] eqn:R. pose proof (src_reregister_SOK _ _ _ _ _ _ R) as S.
  pose proof (EPI_set_src s o ob e1 x' Ho S H) as H2.
  destruct r; cbn [snd]; try destruct (src_lc x'); (eapply EPI_same; [| |exact H2]); cbn [en objs set_lifecycle panic set_halted emit set_log]; rewrite ?en_regop, ?objs_regop; reflexivity.
Qed.
Lemma EPI_disp_unregister s o t : EPI s -> EPI (snd (disp_unregister s o t)).
Proof.
  intros H. unfold disp_unregister. destruct (objs s o) as [ob|] eqn:Ho; [|exact H]. destruct (is_running s o); [exact H|].
  destruct (src_unregister (en s) (o_src ob)) as [[ok x'] e1] eqn:R. pose proof (src_unregister_SOK _ _ _ _ _ R) as S.
  pose proof (EPI_set_src s o ob e1 x' Ho S H) as H2. cbn [snd].
  destruct (src_lc x'); (eapply EPI_same; [| |exact H2]); cbn [en objs set_lifecycle]; rewrite ?en_regop, ?objs_regop; reflexivity.
Qed.

Lemma EPI_drop_obj s o ob : objs s o = Some ob -> EPI s -> EPI (drop_obj s o ob).
Proof.
  intros Ho H fd Hf. unfold drop_obj in *. cbn [en emit set_log set_objs set_en] in Hf.
  destruct (src_drop_has _ _ _ Hf) as [H0 Nc]. destruct (H fd H0) as (o1 & ob1 & Ho1 & Hc1).
  destruct (N.eq_dec o1 o) as [->|Hne]; [rewrite Ho in Ho1; injection Ho1 as <-; contradiction|].
  exists o1, ob1. split; [|exact Hc1]. cbn. unfold fupd. destruct (N.eqb_spec o1 o); [contradiction|exact Ho1].
Qed.
Lemma EPI_maybe_drop s o : EPI s -> EPI (maybe_drop s o).
Proof.
  intros H. unfold maybe_drop. destruct (objs s o) as [ob|] eqn:Ho; [|exact H]. destruct (o_ext ob || in_slots (slots s) o); [exact H|].
  destruct (is_running s o); [apply (EPI_same s); [reflexivity|reflexivity|exact H]|apply EPI_drop_obj; assumption].
Qed.

(* ---------- environment-only updates keep the set of registered fds ---------- *)
Lemma has_do_ping e p fd : has (do_ping e p) fd = has e fd.
Proof. unfold do_ping. destruct (pings e p) as [[f n]|]; [|reflexivity]. destruct (0 <? n); [apply has_fd_write|reflexivity]. Qed.
Lemma has_do_clonep e p fd : has (do_clonep e p) fd = has e fd.
Proof. unfold do_clonep. destruct (pings e p) as [[f n]|]; [|reflexivity]. destruct (0 <? n); reflexivity. Qed.
Lemma has_do_dropp e p fd : has (do_dropp e p) fd = has e fd.
Proof. unfold do_dropp. destruct (pings e p) as [[f n]|]; [|reflexivity]. destruct (n =? 0); [reflexivity|]. destruct (n =? 1); [rewrite has_fd_write|]; reflexivity. Qed.
Lemma has_env_send e c v fd : has (fst (env_send e c v)) fd = has e fd.
Proof.
  unfold env_send. destruct (chans e c) as [ch|]; [|reflexivity]. destruct (ch_senders ch =? 0); [reflexivity|].
  destruct (negb (ch_rx_alive ch)); [reflexivity|]. destruct (chan_full ch); cbn [fst]; rewrite has_fd_write; reflexivity.
Qed.
Lemma has_do_clonesender e c fd : has (do_clonesender e c) fd = has e fd.
Proof. unfold do_clonesender. destruct (chans e c) as [ch|]; [|reflexivity]. destruct (ch_senders ch =? 0); reflexivity. Qed.
Lemma has_do_dropsender e c fd : has (do_dropsender e c) fd = has e fd.
Proof.
  unfold do_dropsender. destruct (chans e c) as [ch|]; [|reflexivity]. destruct (ch_senders ch =? 0); [reflexivity|].
  destruct (ch_bound ch); [destruct (ch_senders ch =? 1)|]; rewrite ?has_fd_write; reflexivity.
Qed.

Lemma envop_has e e' : envop e e' -> forall fd, has e' fd = has e fd.
Proof.
  intros [] fd'; try reflexivity; [apply has_fd_write|apply has_fd_read|apply has_do_ping|apply has_do_clonep|apply has_do_dropp|
    apply has_env_send|apply has_do_dropsender|apply has_do_clonesender].
Qed.

(* replacing the source of o by one that covers at least the same fds *)
Lemma EPI_set_obj_src_cov s o x' : (forall ob fd, objs s o = Some ob -> scov (o_src ob) fd -> scov x' fd) -> EPI s -> EPI (set_obj_src s o x').
Proof.
  intros Hc H fd Hf. unfold set_obj_src in *. destruct (objs s o) as [ob|] eqn:Ho; [|apply H; exact Hf].
  cbn [en set_objs] in Hf. destruct (H fd Hf) as (o1 & ob1 & Ho1 & Hc1). destruct (N.eq_dec o1 o) as [->|Hne].
  - rewrite Ho in Ho1. injection Ho1 as <-. exists o, (mkObj x' (o_ext ob)). split; [cbn; unfold fupd; rewrite N.eqb_refl; reflexivity|]. apply (Hc ob fd eq_refl Hc1).
  - exists o1, ob1. split; [cbn; unfold fupd; destruct (N.eqb_spec o1 o); [contradiction|exact Ho1]|exact Hc1].
Qed.
Lemma lcov_set_nth_gen subs : forall j it m fd, lcov subs fd -> lcov (set_nth_gen subs j it m) fd.
Proof.
  induction subs as [|g r IH]; intros [|j] it m fd H; cbn; try exact H.
  - apply lcov_cons in H. apply lcov_cons. destruct H as [[A B]|H]; [left; split; assumption|right; exact H].
  - apply lcov_cons in H. apply lcov_cons. destruct H as [H|H]; [left; exact H|right; apply IH; exact H].
Qed.
(* set_deadline and the re-arm after a timer callback write the deadline only: the Generics of the source stay *)
Lemma gens_of_src_set_dl x dl : gens_of (src_set_dl x dl) = gens_of x.
Proof. destruct x as [lc own subs [tm|]|g|tm|c g]; reflexivity. Qed.
Lemma EPI_set_dl s o ob dl : objs s o = Some ob -> EPI s -> EPI (set_obj_src s o (src_set_dl (o_src ob) dl)).
Proof.
  intros Ho. apply EPI_set_obj_src_cov. intros ob0 fd E0 Hc. rewrite Ho in E0. injection E0 as <-.
  unfold scov. rewrite gens_of_src_set_dl. exact Hc.
Qed.

Lemma EPI_set_objs s h v : (forall ob, objs s h = Some ob -> o_src v = o_src ob) -> EPI s -> EPI (set_objs s (fupd (objs s) h (Some v))).
Proof.
  intros Hv H fd Hf. destruct (H fd Hf) as (o1 & ob1 & Ho1 & Hc1). destruct (N.eq_dec o1 h) as [->|Hne].
  - exists h, v. split; [cbn; unfold fupd; rewrite N.eqb_refl; reflexivity|rewrite (Hv ob1 Ho1); exact Hc1].
  - exists o1, ob1. split; [cbn; unfold fupd; destruct (N.eqb_spec o1 h); [contradiction|exact Ho1]|exact Hc1].
Qed.

Lemma star_EPI (step : st -> st -> Prop) : (forall a b, step a b -> EPI a -> EPI b) -> forall a b, star step a b -> EPI a -> EPI b.
Proof. apply (star_incl (fun a b => EPI a -> EPI b)); [intros s H; exact H|intros a b c H1 H2 H; exact (H2 (H1 H))]. Qed.

Lemma astep_EPI a s s' : astep a s s' -> EPI s -> EPI s'.
Proof.
  destruct 1 as [s e' E|s args|s k|s h x _ Eh|s i sl e h _ _ _|s i t h g _ _|s i t h g _|s o t _|s o t _|s o t|s p _ _|s t _|s o|
                 s h ob lc own subs tmr j it m Eh _ Es|s h ob dl Eh _|s h ob Eh _|s h ob Eh|s i _|s i];
    try (apply EPI_same; reflexivity).
  - apply EPI_frame; [apply envop_has; exact E|reflexivity].
  - apply EPI_set_objs. intros ob E. congruence.
  - apply EPI_disp_register.
  - apply EPI_disp_reregister.
  - apply EPI_disp_unregister.
  - apply EPI_maybe_drop.
  - apply EPI_set_obj_src_cov. intros ob0 fd Ho0 Hc. rewrite Eh in Ho0. injection Ho0 as <-. rewrite Es in Hc. unfold scov in *. cbn [gens_of] in *.
    apply lcov_set_nth_gen. exact Hc.
  - apply EPI_set_dl. exact Eh.
  - apply EPI_drop_obj. exact Eh.
  - apply EPI_set_objs. intros ob0 E. rewrite Eh in E. injection E as <-. reflexivity.
Qed.
Lemma EPI_exec_action s a : EPI s -> EPI (exec_action s a).
Proof. apply (star_EPI _ (astep_EPI a)). apply exec_action_astar. Qed.

Lemma cstep_EPI ok h s s' : cstep ok h s s' -> EPI s -> EPI s'.
Proof.
  destruct 1 as [s sub p|s a _|s e' E|s ob tk c dl Ho|s ob Ho].
  - apply EPI_same; reflexivity.
  - apply EPI_exec_action.
  - apply EPI_frame; [apply envop_has; exact E|reflexivity].
  - intros H. apply EPI_set_dl; [exact Ho|]. apply (EPI_frame s); [reflexivity|reflexivity|exact H].
  - apply EPI_set_dl. exact Ho.
Qed.
Lemma lstep_EPI ok o s s' : lstep ok o s s' -> EPI s -> EPI s'.
Proof.
  destruct 1 as [s s' C|s v|s|s t|s t|s t|s|s x]; try (apply EPI_same; reflexivity).
  - eapply cstep_EPI; exact C.
  - apply EPI_disp_reregister.
  - apply EPI_disp_unregister.
  - apply EPI_maybe_drop.
Qed.
Lemma EPI_process_event scr s ev : EPI s -> EPI (fst (process_event scr s ev)).
Proof. destruct (process_event_star (fun _ => True) scr (scripts_ok_True scr) s ev) as [o S]. eapply star_EPI; [apply lstep_EPI|exact S]. Qed.
Lemma dstep_EPI ok scr s s' : dstep ok scr s s' -> EPI s -> EPI s'.
Proof.
  destruct 1 as [s ev _| | | | | |s t order| |]; try (apply EPI_same; reflexivity).
  - apply EPI_process_event.
  - apply EPI_exec_action.
  - apply EPI_frame; [|reflexivity]. intros fd. apply has_poll.
Qed.
Lemma EPI_exec_cmds scr bscr cmds : forall s, EPI s -> EPI (fold_left (exec_cmd scr bscr) cmds s).
Proof.
  intros s. eapply star_EPI; [apply (dstep_EPI (fun _ => True) scr)|]. apply exec_cmds_star; [apply scripts_ok_True|apply cmds_ok_True].
Qed.

(* NOTHING STALE, for every scenario: every fd in the poller's table is owned by a Generic (sub-source) of an object that still
   exists, and that Generic has recorded the poller - so dropping or unwrapping it will delete the fd *)
Theorem nothing_stale scr bscr cmds fd : has (en (run scr bscr cmds)) fd = true ->
  exists o ob g, objs (run scr bscr cmds) o = Some ob /\ In g (gens_of (o_src ob)) /\ g_fd g = fd /\ g_poller g = true.
Proof.
  intros H. assert (E : EPI (run scr bscr cmds)) by (unfold run; apply EPI_exec_cmds; intros fd0 H0; discriminate).
  destruct (E fd H) as (o & ob & Ho & g & Hi & Gf & Gp). exists o, ob, g. repeat split; assumption.
Qed.
