(* C06, whole histories: a token that has stopped resolving never resolves again (fewer than 65536 reuses of its slot). *)
From CV Require Import Base Token Loop.
From CVP Require Import Token_proofs Loop_frames Loop_walk.
Open Scope N_scope.

Definition slot_wf (i : nat) (sl : slot) : Prop :=
  wf_tok (s_tok sl) /\ t_id (s_tok sl) = N.of_nat i /\ t_sub (s_tok sl) = 0 /\ t_ver (s_tok sl) = s_gen sl mod U16.
Definition slots_wf (l : list slot) : Prop := forall i sl, nth_error l i = Some sl -> slot_wf i sl.
(* a slot only moves forward: a later generation, or the same generation with the same token and the same source or none *)
Definition slot_le (a b : slot) : Prop :=
  s_gen a < s_gen b \/ (s_gen a = s_gen b /\ s_tok b = s_tok a /\ (s_obj b = s_obj a \/ s_obj b = None)).
Definition slots_le (l l' : list slot) : Prop :=
  forall i sl, nth_error l i = Some sl -> exists sl', nth_error l' i = Some sl' /\ slot_le sl sl'.
Definition sstep (l l' : list slot) : Prop := (slots_wf l -> slots_wf l') /\ slots_le l l'.

Lemma slot_le_refl a : slot_le a a.
Proof. right. repeat split. left. reflexivity. Qed.
Lemma slot_le_trans a b c : slot_le a b -> slot_le b c -> slot_le a c.
Proof.
  intros [H1|(G1 & T1 & O1)] [H2|(G2 & T2 & O2)]; [left; lia|left; lia|left; lia|].
  right. split; [lia|]. split; [congruence|]. destruct O2 as [O2|O2]; [rewrite O2; exact O1|right; exact O2].
Qed.
Lemma sstep_refl l : sstep l l.
Proof. split; [tauto|]. intros i sl H. exists sl. split; [exact H|apply slot_le_refl]. Qed.
Lemma sstep_trans a b c : sstep a b -> sstep b c -> sstep a c.
Proof.
  intros [W1 L1] [W2 L2]. split; [tauto|]. intros i sl H. destruct (L1 i sl H) as [sl1 [H1 A]]. destruct (L2 i sl1 H1) as [sl2 [H2 B]].
  exists sl2. split; [exact H2|eapply slot_le_trans; eassumption].
Qed.
Lemma sstep_eq l l' : l' = l -> sstep l l'.
Proof. intros ->. apply sstep_refl. Qed.

(* the bound under which the whole-history statements hold: no slot has been reused 65536 times *)
Definition gens_small (l : list slot) : Prop := forall i sl, nth_error l i = Some sl -> s_gen sl < U16.
Lemma gens_small_mono l l' : slots_le l l' -> gens_small l' -> gens_small l.
Proof.
  intros L G i sl H. destruct (L i sl H) as [sl' [H' [Hlt|(He & _)]]]; pose proof (G _ _ H'); lia.
Qed.

Lemma upd_upd {A} (l : list A) : forall k a b, upd (upd l k a) k b = upd l k b.
Proof. induction l as [|y t IH]; intros [|k] a b; cbn; try reflexivity. f_equal. apply IH. Qed.
Lemma nth_error_upd_eq {A} (l : list A) i x y : nth_error l i = Some y -> nth_error (upd l i x) i = Some x.
Proof. intros H. apply nth_error_upd_same, nth_error_Some. congruence. Qed.

Lemma sstep_upd l i old new : nth_error l i = Some old -> slot_le old new -> (slot_wf i old -> slot_wf i new) -> sstep l (upd l i new).
Proof.
  intros Hn Hle Hwf. split.
  - intros W j sl Hj. destruct (Nat.eq_dec i j) as [<-|Hne].
    + rewrite (nth_error_upd_eq l i new old Hn) in Hj. injection Hj as <-. apply Hwf. apply W. exact Hn.
    + rewrite nth_error_upd_other in Hj by exact Hne. apply W. exact Hj.
  - intros j sl Hj. destruct (Nat.eq_dec i j) as [<-|Hne].
    + exists new. split; [eapply nth_error_upd_eq; exact Hn|]. rewrite Hn in Hj. injection Hj as <-. exact Hle.
    + exists sl. split; [rewrite nth_error_upd_other by exact Hne; exact Hj|apply slot_le_refl].
Qed.
Lemma sstep_push l new : slot_wf (length l) new -> sstep l (l ++ [new]).
Proof.
  intros Hw. split.
  - intros W j sl Hj. destruct (Nat.lt_ge_cases j (length l)) as [Hlt|Hge].
    + rewrite nth_error_app1 in Hj by exact Hlt. apply W. exact Hj.
    + rewrite nth_error_app2 in Hj by exact Hge. destruct (j - length l)%nat as [|k] eqn:E; cbn in Hj; [|destruct k; discriminate].
      injection Hj as <-. assert (j = length l) by lia. subst j. exact Hw.
  - intros j sl Hj. exists sl. split; [|apply slot_le_refl]. rewrite nth_error_app1; [exact Hj|]. apply nth_error_Some. congruence.
Qed.

Lemma slot_set_obj_none_sstep l t : sstep l (slot_set_obj l t None).
Proof.
  unfold slot_set_obj. destruct (nth_error l (N.to_nat (t_id t))) as [sl|] eqn:E; [|apply sstep_refl].
  apply (sstep_upd l _ sl); [exact E| |].
  - right. cbn. repeat split. right. reflexivity.
  - intros W. exact W.
Qed.

Lemma find_vacant_spec l : forall k i, find_vacant l k = Some i -> (k <= i)%nat /\ exists sl, nth_error l (i - k) = Some sl /\ s_obj sl = None.
Proof.
  induction l as [|sl t IH]; intros k i H; cbn in H; [discriminate|].
  destruct (s_obj sl) eqn:Eo.
  - destruct (IH (S k) i H) as [Hle [sl' [Hn Ho]]]. split; [lia|]. exists sl'. split; [|exact Ho].
    replace (i - k)%nat with (S (i - S k)) by lia. exact Hn.
  - injection H as <-. split; [lia|]. exists sl. rewrite Nat.sub_diag. split; [reflexivity|exact Eo].
Qed.

Lemma mod_succ g : (g mod U16 + 1) mod U16 = (g + 1) mod U16.
Proof. rewrite N.add_mod_idemp_l by (unfold U16; lia). reflexivity. Qed.

(* vacant_entry: the entry it returns is vacant, and filling it - or leaving it vacant again - is a step from the list as it was *)
Lemma vacant_entry_sstep l i l' : vacant_entry l = Some (i, l') ->
  sstep l l' /\ exists e, nth_error l' i = Some e /\ s_obj e = None /\
    (forall h, sstep l (upd l' i (mkSlot (s_tok e) (Some h) (s_gen e)))) /\
    sstep l (upd l' i (mkSlot (s_tok e) None (s_gen e))).
Proof.
  unfold vacant_entry. destruct (find_vacant l 0) as [k|] eqn:Ef.
  - destruct (nth_error l k) as [sl|] eqn:En; [|discriminate]. intros [= <- <-].
    destruct (find_vacant_spec l 0 k Ef) as [_ [sl0 [Hn Ho]]]. rewrite Nat.sub_0_r, En in Hn. injection Hn as <-.
    set (new := mkSlot (increment_version (s_tok sl)) None (s_gen sl + 1)).
    assert (Hle : forall o, slot_le sl (mkSlot (s_tok new) o (s_gen new))) by (intros o; left; cbn; lia).
    assert (Hwf : forall o, slot_wf k sl -> slot_wf k (mkSlot (s_tok new) o (s_gen new))).
    { intros o (W & I & S & V). destruct (increment_version_spec _ W) as [E W']. unfold slot_wf. cbn [s_tok s_gen new].
      split; [exact W'|]. rewrite E. cbn [t_id t_sub t_ver]. repeat split; [exact I|]. rewrite V. apply mod_succ. }
    split; [apply (sstep_upd l k sl); [exact En|exact (Hle None)|exact (Hwf None)]|].
    exists new. split; [eapply nth_error_upd_eq; exact En|]. split; [reflexivity|].
    split; [intros h|]; rewrite upd_upd; apply (sstep_upd l k sl); try exact En; auto.
  - destruct (tok_new (N.of_nat (length l))) as [t|] eqn:Et; [|discriminate]. intros [= <- <-].
    unfold tok_new in Et. destruct (N.ltb_spec (N.of_nat (length l)) U32) as [Hlt|]; [|discriminate]. injection Et as <-.
    assert (Hwf : forall o, slot_wf (length l) (mkSlot (mkTok (N.of_nat (length l)) 0 0) o 0)).
    { intros o. unfold slot_wf, wf_tok. cbn. unfold U16. repeat split; try lia; try exact Hlt. }
    split; [apply sstep_push; apply Hwf|].
    exists (mkSlot (mkTok (N.of_nat (length l)) 0 0) None 0).
    split; [rewrite nth_error_app2 by lia; rewrite Nat.sub_diag; reflexivity|]. split; [reflexivity|].
    assert (U : forall (y x : slot), upd (l ++ [y]) (length l) x = l ++ [x]).
    { intros y x. clear. induction l as [|h t IH]; cbn [app length upd]; [reflexivity|]. f_equal. exact IH. }
    cbn [s_tok s_gen]. split; [intros h|]; rewrite U; apply sstep_push; apply Hwf.
Qed.

Lemma star_sstep (step : st -> st -> Prop) : (forall a b, step a b -> sstep (slots a) (slots b)) ->
  forall a b, star step a b -> sstep (slots a) (slots b).
Proof. apply (star_incl (fun a b => sstep (slots a) (slots b))); [intros; apply sstep_refl|intros; eapply sstep_trans; eassumption]. Qed.

Lemma astep_sstep a s s' : astep a s s' -> sstep (slots s) (slots s').
Proof.
  destruct 1 as [s e' E|s args|s k|s h x _ Eh|s i sl e h _ Ev He|s i t h g _ Hn|s i t h g _|s o t _|s o t _|s o t|s p _ _|s t _|s o|
                 s h ob lc own subs tmr j it m _ _ _|s h ob dl _ _|s h ob _ _|s h ob _|s i _|s i];
    try (apply sstep_eq; reflexivity).
  - destruct (vacant_entry_sstep _ _ _ Ev) as [_ [e0 [He0 [_ [Sh _]]]]]. rewrite He in He0. injection He0 as <-. apply Sh.
  - apply (sstep_upd _ _ _ _ Hn); [right; cbn; repeat split; right; reflexivity|intros W; exact W].
  - apply sstep_eq, slots_disp_register.
  - apply sstep_eq, slots_disp_reregister.
  - apply sstep_eq, slots_disp_unregister.
  - apply slot_set_obj_none_sstep.
  - apply sstep_eq, slots_maybe_drop.
  - apply sstep_eq, slots_set_obj_src.
  - apply sstep_eq, slots_set_obj_src.
Qed.
Lemma exec_action_sstep s a : sstep (slots s) (slots (exec_action s a)).
Proof. apply (star_sstep _ (astep_sstep a)), exec_action_astar. Qed.
Lemma do_insert_sstep s h x : sstep (slots s) (slots (do_insert s h x)).
Proof. apply (star_sstep _ (astep_sstep (AInsert h x))), do_insert_astar. Qed.

Lemma cstep_sstep ok h s s' : cstep ok h s s' -> sstep (slots s) (slots s').
Proof.
  destruct 1; try (apply sstep_eq; reflexivity); [apply exec_action_sstep| |]; apply sstep_eq; rewrite slots_set_obj_src; reflexivity.
Qed.
Lemma lstep_sstep ok o s s' : lstep ok o s s' -> sstep (slots s) (slots s').
Proof.
  destruct 1; try (apply sstep_eq; reflexivity).
  - eapply cstep_sstep; eassumption.
  - apply sstep_eq, slots_disp_reregister.
  - apply sstep_eq, slots_disp_unregister.
  - apply slot_set_obj_none_sstep.
  - apply sstep_eq, slots_maybe_drop.
Qed.
Lemma process_event_sstep scr s ev : sstep (slots s) (slots (fst (process_event scr s ev))).
Proof. destruct (process_event_star (fun _ => True) scr (scripts_ok_True scr) s ev) as [o S]. eapply star_sstep; [apply lstep_sstep|exact S]. Qed.
Lemma dstep_sstep ok scr s s' : dstep ok scr s s' -> sstep (slots s) (slots s').
Proof. destruct 1; try (apply sstep_eq; reflexivity); [apply process_event_sstep|apply exec_action_sstep]. Qed.

Lemma exec_cmds_sstep scr bscr cmds : forall s, sstep (slots s) (slots (fold_left (exec_cmd scr bscr) cmds s)).
Proof.
  intros s. eapply star_sstep; [apply (dstep_sstep (fun _ => True) scr)|]. apply exec_cmds_star; [apply scripts_ok_True|apply cmds_ok_True].
Qed.

(* An invariant that is only claimed while generations are small is stated with the bound on the LATER state (slots only move
   forward, so the bound then holds all along). gpres I is that form of "I is preserved", as a relation between states: it is
   reflexive and transitive, so it holds of a run when it holds of its steps. *)
Definition gpres (I : st -> Prop) (s s' : st) : Prop := sstep (slots s) (slots s') /\ (I s -> gens_small (slots s') -> I s').
Lemma gpres_refl I s : gpres I s s.
Proof. split; [apply sstep_refl|auto]. Qed.
Lemma gpres_trans I a b c : gpres I a b -> gpres I b c -> gpres I a c.
Proof.
  intros [S1 P1] [S2 P2]. split; [eapply sstep_trans; eassumption|]. intros Ia G. apply P2; [|exact G]. apply P1; [exact Ia|].
  eapply gens_small_mono; [apply (proj2 S2)|exact G].
Qed.
Lemma gpres_frame (I : st -> Prop) s s' : slots s' = slots s -> (I s -> I s') -> gpres I s s'.
Proof. intros E H. split; [apply sstep_eq; exact E|auto]. Qed.
Lemma star_gpres I (step : st -> st -> Prop) : (forall a b, step a b -> gpres I a b) -> forall a b, star step a b -> gpres I a b.
Proof. apply star_incl; [apply gpres_refl|apply gpres_trans]. Qed.

(* t belongs to the current or a past generation of its slot: it may have been handed out *)
Definition issued (l : list slot) (t : tok) : Prop :=
  exists sl, nth_error l (N.to_nat (t_id t)) = Some sl /\ t_ver t <= s_gen sl.

(* what the slot of an issued token holds, if the token still resolves to it, changes only by becoming nothing *)
Lemma resolves_sstep (Pd : option N -> Prop) l l' t : Pd None -> sstep l l' -> slots_wf l -> gens_small l' -> issued l t ->
  (forall sl, slot_get l t = Some sl -> Pd (s_obj sl)) -> issued l' t /\ forall sl, slot_get l' t = Some sl -> Pd (s_obj sl).
Proof.
  intros P0 [W L] Hw Hg [sl [Hn Hv]] Ho. specialize (W Hw). destruct (L _ _ Hn) as [sl' [Hn' Hle]]. split.
  - exists sl'. split; [exact Hn'|]. destruct Hle as [Hlt|(Hg' & _)]; lia.
  - intros sl2 Hs. unfold slot_get in *. rewrite Hn' in Hs. rewrite Hn in Ho.
    destruct (same_source_as (s_tok sl') t) eqn:E; [|discriminate]. injection Hs as <-.
    destruct Hle as [Hlt|(Hg' & Ht & Hob)].
    + exfalso. destruct (W _ _ Hn') as (_ & _ & _ & Hver). pose proof (Hg _ _ Hn') as Hsm. rewrite N.mod_small in Hver by exact Hsm.
      unfold same_source_as in E. apply andb_prop in E. destruct E as [_ E]. apply N.eqb_eq in E. lia.
    + rewrite Ht in E. rewrite E in Ho. specialize (Ho sl eq_refl). destruct Hob as [Hob|Hob]; rewrite Hob; [exact Ho|exact P0].
Qed.
Lemma dead_stays_dead l l' t : sstep l l' -> slots_wf l -> gens_small l' -> issued l t ->
  (match slot_get l t with Some sl => s_obj sl | None => None end) = None ->
  (match slot_get l' t with Some sl => s_obj sl | None => None end) = None.
Proof.
  intros S Hw Hg Hi Hd. destruct (slot_get l' t) as [sl'|] eqn:E'; [|reflexivity].
  refine (proj2 (resolves_sstep (fun x => x = None) l l' t eq_refl S Hw Hg Hi _) sl' E'). intros sl E. rewrite E in Hd. exact Hd.
Qed.

Theorem token_dead_forever scr bscr cmds s t :
  slots_wf (slots s) -> gens_small (slots (fold_left (exec_cmd scr bscr) cmds s)) -> issued (slots s) t ->
  lc_lookup s t = None -> lc_lookup (fold_left (exec_cmd scr bscr) cmds s) t = None.
Proof. intros Hw Hg Hi Hd. unfold lc_lookup in *. eapply dead_stays_dead; try eassumption. apply exec_cmds_sstep. Qed.

(* every state a scenario reaches has well-formed slots (token = (index, generation mod 2^16, 0)) *)
Lemma run_slots_wf scr bscr cmds : slots_wf (slots (run scr bscr cmds)).
Proof.
  unfold run. destruct (exec_cmds_sstep scr bscr cmds init) as [W _]. apply W.
  intros i sl H. destruct i; discriminate.
Qed.
(* so: in ANY scenario, split anywhere: a token that does not resolve at the split never resolves afterwards *)
Theorem token_dead_forever_run scr bscr cmds1 cmds2 t :
  gens_small (slots (run scr bscr (cmds1 ++ cmds2))) -> issued (slots (run scr bscr cmds1)) t ->
  lc_lookup (run scr bscr cmds1) t = None -> lc_lookup (run scr bscr (cmds1 ++ cmds2)) t = None.
Proof.
  intros Hg Hi Hd. unfold run in *. rewrite fold_left_app in *. apply token_dead_forever; try assumption. apply run_slots_wf.
Qed.
(* the handle-level reading: lookup (what enable/disable/update/remove use) of a handle whose token is dead stays None *)
Lemma lookup_none_of_dead s h t : toks s h = Some t -> lc_lookup s t = None -> lookup s h = None.
Proof.
  intros Ht Hd. unfold lookup, lc_lookup in *. rewrite Ht. destruct (slot_get (slots s) t) as [sl|]; [|reflexivity]. rewrite Hd. reflexivity.
Qed.
