From CV Require Import Base SrcAsync.
Open Scope N_scope.

(* a suspended task always has its waker stored and its registration armed: nothing can make the fd ready without the next
   dispatch waking it; bytes are conserved: what the task moved plus what is still transferable is what the peer offered *)
Definition ainv (s : ast) : Prop :=
  (status s = TSuspended -> armed s = true /\ waker s = true) /\
  moved s + avail s = offered s /\
  (status s = TFinished -> todo s = 0).

Lemma clamp_bounds n lo hi : lo <= hi -> lo <= clamp n lo hi <= hi.
Proof. unfold clamp. lia. Qed.

Ltac asplit := unfold ainv; cbn [avail armed waker status todo moved offered]; split; [intros H|split; [|intros H]].

Lemma ainv_step s o : ainv s -> ainv (a_step s o).
Proof.
  intros Hinv. pose proof Hinv as (A & B & C). destruct o as [n|k|]; cbn [a_step].
  - destruct (status s) eqn:Es; try exact Hinv.
    destruct (N.eqb_spec (todo s) 0) as [E0|E0]; [asplit; [discriminate|exact B|reflexivity]|].
    destruct (N.ltb_spec 0 (avail s)) as [Ha|Ha].
    + assert (Hb : 1 <= N.min (todo s) (avail s)) by lia.
      pose proof (clamp_bounds n 1 _ Hb) as [K1 K2].
      asplit.
      * destruct (todo s - clamp n 1 (N.min (todo s) (avail s)) =? 0); discriminate.
      * lia.
      * destruct (N.eqb_spec (todo s - clamp n 1 (N.min (todo s) (avail s))) 0); [assumption|discriminate].
    + asplit; [split; reflexivity|exact B|discriminate].
  - asplit; [exact (A H)|lia|exact (C H)].
  - destruct (armed s && (0 <? avail s)) eqn:E; [|exact Hinv].
    asplit.
    + destruct (waker s) eqn:Ew; [destruct (status s); discriminate|]. destruct (A H) as [_ W]. congruence.
    + exact B.
    + destruct (waker s); [destruct (status s) eqn:Es; try discriminate; auto|auto].
Qed.

Lemma ainv_run todo0 ops : ainv (a_run todo0 ops).
Proof.
  unfold a_run. assert (H : ainv (a_init todo0)) by (unfold ainv, a_init; cbn; repeat split; auto; discriminate).
  revert H. generalize (a_init todo0). induction ops as [|o r IH]; intros s H; cbn; [exact H|]. apply IH. apply ainv_step. exact H.
Qed.

(* no lost wake: a suspended task whose fd can transfer is runnable again after one dispatch *)
Lemma wake_on_ready s : ainv s -> status s = TSuspended -> 0 < avail s -> status (a_step s ADispatch) = TRunnable.
Proof.
  intros (A & _) Hs Ha. destruct (A Hs) as [Ar Aw]. cbn [a_step]. rewrite Ar. destruct (N.ltb_spec 0 (avail s)); [|lia].
  cbn. rewrite Aw, Hs. reflexivity.
Qed.
(* progress never moves more than offered, in order (a FIFO): moved <= offered; and a runnable task with bytes available moves *)
Lemma moved_le_offered s : ainv s -> moved s <= offered s.
Proof. intros (_ & B & _). lia. Qed.
Lemma poll_makes_progress s n : status s = TRunnable -> 0 < todo s -> 0 < avail s ->
  moved s < moved (a_step s (APoll n)) /\ moved (a_step s (APoll n)) - moved s <= N.min (todo s) (avail s).
Proof.
  intros Hs Ht Ha. cbn [a_step]. rewrite Hs. destruct (N.eqb_spec (todo s) 0); [lia|]. destruct (N.ltb_spec 0 (avail s)); [|lia].
  assert (Hb : 1 <= N.min (todo s) (avail s)) by lia. pose proof (clamp_bounds n 1 _ Hb). cbn. lia.
Qed.

(* a task suspended in a wait for direction d has either been woken already, or the poller's one-shot entry is armed FOR d
   and the waker is stored *)
Definition winv (s : wst) : Prop :=
  forall d, susp s = Some d -> woken s = true \/ (parmed s = true /\ pint s = d /\ wk s = true).

Lemma winv_step s o : winv s -> winv (w_step s o).
Proof.
  intros H d. destruct o as [d0 stay|b|b|]; cbn [w_step].
  - destruct (match d0 with DR => lr s | DW => lw s end); cbn [susp woken parmed pint wk]; [discriminate|].
    destruct stay; [|discriminate]. intros [= <-]. right. repeat split.
  - cbn [susp woken parmed pint wk]. apply H.
  - cbn [susp woken parmed pint wk]. apply H.
  - destruct (parmed s && kready s (pint s)) eqn:E; cbn [susp woken parmed pint wk]; [|apply H].
    intros Hs. left. destruct (H d Hs) as [W|(_ & _ & W)]; rewrite W; [reflexivity|apply orb_true_r].
Qed.
Lemma winv_run ops : winv (w_run ops).
Proof.
  unfold w_run. assert (H : winv w_init) by (intros d; cbn; discriminate).
  revert H. generalize w_init. induction ops as [|o r IH]; intros s H; cbn; [exact H|]. apply IH. apply winv_step. exact H.
Qed.
(* no lost wake, whatever was waited for and abandoned before: once the fd is ready for the awaited direction, one dispatch
   has the task woken *)
Lemma w_woken_when_ready s d : winv s -> susp s = Some d -> kready s d = true -> woken (w_step s WDispatch) = true.
Proof.
  intros H Hs Hk. cbn [w_step]. destruct (H d Hs) as [W|(A & B & C)].
  - destruct (parmed s && kready s (pint s)); cbn [woken]; rewrite W; reflexivity.
  - rewrite A, B, Hk. cbn. rewrite C. apply orb_true_r.
Qed.
(* and nobody is woken without a cause: a dispatch wakes only when the armed interest is ready *)
Lemma w_no_spurious_wake s : woken s = false -> woken (w_step s WDispatch) = true -> parmed s = true /\ kready s (pint s) = true.
Proof.
  intros H0 H1. cbn [w_step] in H1. destruct (parmed s) eqn:A; destruct (kready s (pint s)) eqn:B; cbn in H1; try congruence. split; reflexivity.
Qed.
