From CV Require Import Base ConcChannel.
From CVP Require Import ConcChannel_proofs.
Open Scope N_scope.

(* a state in which nothing is on its way any more: the eventfd is not readable, no sender is between its enqueue and its ping, and
   the loop is not inside a drain *)
Definition cc_quiet (s : ccst) : Prop := creg s = false \/ (cctr s < 2 /\ ntoping (cthr s) = 0 /\ loop_busy s = false).

Lemma quiet_all_delivered s : ccinv s -> cc_quiet s ->
  cdelivered s = csent s /\ cq s = [] /\ (csenders s = 0 -> cclosed s = 1 /\ creg s = false).
Proof.
  intros (Hd & _ & _ & Hw & _ & Hc & Hr & _) Q.
  destruct (creg s) eqn:R.
  - destruct Q as [Q|(Q1 & Q2 & Q3)]; [congruence|].
    assert (NW : ~ wake_pending s) by (unfold wake_pending; intros [X|[X|X]]; [lia|lia|congruence]).
    assert (Hq : cq s = []) by (destruct (cq s) as [|m r] eqn:E; [reflexivity|exfalso; apply NW, Hw; [reflexivity|left; discriminate]]).
    split; [rewrite Hq, app_nil_r in Hd; exact Hd|]. split; [exact Hq|].
    intros S0. exfalso. apply NW, Hw; [reflexivity|right; exact S0].
  - destruct (Hr eq_refl) as [S0 Hq]. split; [rewrite Hq, app_nil_r in Hd; exact Hd|]. split; [exact Hq|].
    intros _. split; [apply Hc; reflexivity|reflexivity].
Qed.
Theorem quiescent_run_delivered_everything b progs nd sched : progs <> [] -> Forall (fun p => wf_cprog 1 p = true) progs ->
  cc_quiet (cc_run b progs nd sched) ->
  let s := cc_run b progs nd sched in
  cdelivered s = csent s /\ cq s = [] /\ (csenders s = 0 -> cclosed s = 1 /\ creg s = false).
Proof. intros H1 H2 Q. exact (quiet_all_delivered _ (ccinv_run b progs nd sched H1 H2) Q). Qed.
Example quiet_somewhere :
  cc_quiet (cc_run None [[CSend 7; CSend 8; CDropS]] 3 [1; 1; 1; 0; 0; 0; 1; 1; 1; 0; 0; 0; 0; 0; 0; 0]%nat).
Proof. left. vm_compute. reflexivity. Qed.
Example quiet_somewhere_open :
  let s := cc_run None [[CSend 7; CSend 8]] 3 [1; 1; 1; 0; 0; 0; 1; 1; 1; 0; 0; 0; 0; 0; 0; 0]%nat in cc_quiet s /\ creg s = true /\ cdelivered s = [7; 8].
Proof. vm_compute. split; [right; repeat split|split; reflexivity]. Qed.
