(* The shape of a run. Every composite operation of the loop model - a callback with its scripted actions, a channel's drain
   loop, the processing of one event, a dispatch, a command, a scenario - is a finite sequence of a few kinds of small steps.
   This is proved here once, as membership in the reflexive-transitive closure `star` of three step relations, one per level:
     cstep ok h       what happens while object h's process_events runs (its callbacks, their actions, its own bookkeeping);
     lstep ok o       the steps of one iteration of the event loop, for an event that resolves to object o (cstep o included);
     dstep ok scr     the steps of a dispatch and of a command, with the processing of one event as a single step.
   A relation that is reflexive, transitive and contains the steps therefore contains every run (star_incl); the files that
   prove whole-history statements only say what their relation does on each kind of step. One level further down an action is
   itself a sequence of primitive writes (Loop_actions.astep); the actions appear here as single steps. `ok` is what is known of
   every action the scripts and commands contain. *)
From CV Require Import Base Token PostAction Env Loop.
From CVP Require Import Loop_frames.
From CVP Require Export Loop_actions.
Open Scope N_scope.

(* ---------- while object o is being processed no action touches its source ---------- *)
Definition keeps_src (o : N) (s s' : st) : Prop :=
  forall ob, objs s o = Some ob -> exists ob', objs s' o = Some ob' /\ o_src ob' = o_src ob.
Lemma keeps_src_refl o s : keeps_src o s s.
Proof. intros ob H. exists ob. split; [exact H|reflexivity]. Qed.
Lemma keeps_src_trans o a b c : keeps_src o a b -> keeps_src o b c -> keeps_src o a c.
Proof. intros H1 H2 ob H. destruct (H1 ob H) as [ob1 [A B]]. destruct (H2 ob1 A) as [ob2 [C D]]. exists ob2. split; [exact C|congruence]. Qed.
Lemma keeps_src_eq o s s' : objs s' o = objs s o -> keeps_src o s s'.
Proof. intros E ob H. exists ob. rewrite E. split; [exact H|reflexivity]. Qed.

Lemma objs_set_obj_src_other s o' x o : o <> o' -> objs (set_obj_src s o' x) o = objs s o.
Proof. intros Hne. unfold set_obj_src. destruct (objs s o'); [|reflexivity]. cbn. unfold fupd. destruct (N.eqb_spec o o'); [contradiction|reflexivity]. Qed.
Lemma is_running_set_running s o t : is_running (set_running s (Some (o, t))) o = true.
Proof. apply N.eqb_refl. Qed.
Lemma is_running_neq s o o' : is_running s o = true -> is_running s o' = false -> o <> o'.
Proof. intros H1 H2 ->. congruence. Qed.

(* the dispatcher operations leave the running object alone: register panics on it, the other two defer *)
Lemma objs_disp_register_other s o' t o : o <> o' -> objs (snd (disp_register s o' t)) o = objs s o.
Proof.
  intros Hne. unfold disp_register. destruct (objs s o') as [ob|]; [|reflexivity]. destruct (is_running s o'); [reflexivity|].
  destruct (src_register _ _ _) as [[r x'] e1].
  destruct r; cbn [snd]; try destruct (src_lc x'); cbn [objs set_lifecycle panic set_halted emit set_log];
    rewrite ?objs_regop, objs_set_obj_src_other by exact Hne; reflexivity.
Qed.
Lemma objs_disp_register_running s o' t o : is_running s o = true -> objs (snd (disp_register s o' t)) o = objs s o.
Proof.
  intros Hr. destruct (N.eq_dec o o') as [<-|Hne]; [|apply objs_disp_register_other; exact Hne].
  unfold disp_register. destruct (objs s o) as [ob|] eqn:E; [rewrite Hr|]; cbn; exact E.
Qed.
Lemma objs_disp_reregister_running s o' t o : is_running s o = true -> objs (snd (disp_reregister s o' t)) o = objs s o.
Proof.
  intros Hr. unfold disp_reregister. destruct (objs s o') as [ob|]; [|reflexivity]. destruct (is_running s o') eqn:Er'; [reflexivity|].
  destruct (src_reregister _ _ _) as [[r x'] e1].
  destruct r; cbn [snd]; try destruct (src_lc x'); cbn [objs set_lifecycle panic set_halted emit set_log];
    rewrite ?objs_regop, objs_set_obj_src_other by (eapply is_running_neq; eassumption); reflexivity.
Qed.
Lemma objs_disp_unregister_running s o' t o : is_running s o = true -> objs (snd (disp_unregister s o' t)) o = objs s o.
Proof.
  intros Hr. unfold disp_unregister. destruct (objs s o') as [ob|]; [|reflexivity]. destruct (is_running s o') eqn:Er'; [reflexivity|].
  destruct (src_unregister _ _) as [[ok x'] e1]. cbn [snd]. destruct (src_lc x'); cbn [objs set_lifecycle];
    rewrite objs_regop, objs_set_obj_src_other by (eapply is_running_neq; eassumption); reflexivity.
Qed.
(* a running object that lost its last reference is only marked, and dropped when its processing ends *)
Lemma objs_maybe_drop_running s o' o : is_running s o = true -> objs (maybe_drop s o') o = objs s o.
Proof.
  intros Hr. unfold maybe_drop. destruct (objs s o') as [ob|]; [|reflexivity]. destruct (o_ext ob || in_slots (slots s) o'); [reflexivity|].
  destruct (is_running s o') eqn:Er'; [reflexivity|]. cbn. unfold fupd. destruct (N.eqb_spec o o') as [->|]; [congruence|reflexivity].
Qed.

Lemma astep_keeps_src a o s s' : astep a s s' -> is_running s o = true -> keeps_src o s s'.
Proof.
  destruct 1 as [s e' E|s args|s k|s h x _ Eh|s i sl e h _ _ _|s i t h g _ _|s i t h g _|s o' t _|s o' t _|s o' t|s p _ _|s t _|s o'|
                 s h ob lc own subs tmr j it m _ Er _|s h ob dl _ Er|s h ob _ Er|s h ob Eh|s i _|s i];
    intros Hr; try (apply keeps_src_eq; reflexivity).
  - intros ob H. exists ob. split; [|reflexivity]. cbn. unfold fupd. destruct (N.eqb_spec o h) as [->|]; [congruence|exact H].
  - apply keeps_src_eq, objs_disp_register_running, Hr.
  - apply keeps_src_eq, objs_disp_reregister_running, Hr.
  - apply keeps_src_eq, objs_disp_unregister_running, Hr.
  - apply keeps_src_eq, objs_maybe_drop_running, Hr.
  - apply keeps_src_eq, objs_set_obj_src_other. eapply is_running_neq; eassumption.
  - apply keeps_src_eq, objs_set_obj_src_other. eapply is_running_neq; eassumption.
  - apply keeps_src_eq. cbn. unfold fupd. destruct (N.eqb_spec o h) as [->|]; [congruence|reflexivity].
  - (* the one write that reaches the running object: its outside clone may be dropped; the source stays *)
    intros ob' H'. cbn. unfold fupd. destruct (N.eqb_spec o h) as [->|]; [|exists ob'; split; [exact H'|reflexivity]].
    rewrite Eh in H'. injection H' as <-. eexists. split; reflexivity.
Qed.
Lemma is_running_exec_action s a o : is_running (exec_action s a) o = is_running s o.
Proof. unfold is_running. rewrite running_exec_action. reflexivity. Qed.
Lemma exec_action_keeps_src s a o : is_running s o = true -> keeps_src o s (exec_action s a).
Proof.
  apply (astar_incl a (fun r => match r with Some (x, _) => x =? o | None => false end = true) (keeps_src o));
    [apply keeps_src_refl|apply keeps_src_trans|intros x y S; apply (astep_keeps_src _ _ _ _ S)|apply exec_action_astar].
Qed.
Lemma exec_actions_keeps_src l : forall s o, is_running s o = true -> keeps_src o s (exec_actions s l).
Proof.
  unfold exec_actions. induction l as [|a l IH]; intros s o Hr; cbn [fold_left]; [apply keeps_src_refl|].
  eapply keeps_src_trans; [apply exec_action_keeps_src; exact Hr|apply IH]. rewrite is_running_exec_action. exact Hr.
Qed.
Lemma callback_keeps_src scr s h sub p o : is_running s o = true -> keeps_src o s (fst (callback scr s h sub p)).
Proof. intros Hr. unfold callback. cbn [fst]. eapply keeps_src_trans; [|apply exec_actions_keeps_src; exact Hr]. apply keeps_src_eq. reflexivity. Qed.

Lemma process_event_ok_not_halted scr s ev :
  halted s = false -> snd (process_event scr s ev) = true -> halted (fst (process_event scr s ev)) = false.
Proof.
  intros Hs. destruct (slot_get (slots s) (forget_sub_id (unpack (ev_key ev)))) as [sl|] eqn:E1; [|unfold process_event; rewrite E1; intros _; exact Hs].
  destruct (s_obj sl) as [o|] eqn:E2; [|unfold process_event; rewrite E1, E2; intros _; exact Hs].
  rewrite (process_event_phases scr s ev sl o E1 E2). cbv zeta.
  destruct (obj_process scr _ o ev) as [s2 ret]. destruct (halted s2); [discriminate|].
  destruct (post_phase s2 o _ ret) as [b s5]. destruct (halted s5) eqn:H5; [discriminate|]. intros _.
  cbn [fst]. rewrite halted_end_processing. destruct (slot_vacant_for s5 _); [rewrite halted_disp_unregister|]; exact H5.
Qed.

Definition scripts_ok (ok : action -> Prop) (scr : scripts) : Prop := forall k sc, In sc (scr k) -> Forall ok (sc_acts sc).
Definition cmd_ok (ok : action -> Prop) (c : cmd) : Prop := match c with CAct a => ok a | _ => True end.
Lemma scripts_ok_nth (ok : action -> Prop) (scr : scripts) k n : scripts_ok ok scr -> Forall ok (sc_acts (nth n (scr k) default_script)).
Proof. intros H. destruct (nth_in_or_default n (scr k) default_script) as [Hi|E]; [apply (H k); exact Hi|rewrite E; constructor]. Qed.
Lemma scripts_ok_True scr : scripts_ok (fun _ => True) scr.
Proof. intros k sc _. apply Forall_forall. intros; exact I. Qed.
Lemma cmds_ok_True cmds : Forall (cmd_ok (fun _ => True)) cmds.
Proof. apply Forall_forall. intros [| | |] _; exact I. Qed.

Inductive cstep (ok : action -> Prop) (h : N) : st -> st -> Prop :=
| cs_cb s sub p : cstep ok h s (emit (set_cbn s (fupd (cbn s) h (S (cbn s h)))) (L T_CB [zN h; sub; p]))
| cs_act s a : ok a -> cstep ok h s (exec_action s a)
| cs_env s e' : envop (en s) e' -> cstep ok h s (set_en s e')
| cs_rearm s ob tk c dl : objs s h = Some ob ->
    cstep ok h s (set_obj_src (eenv s (fun e => set_whl e (wh_insert_reuse (whl e) c dl tk))) h (src_set_dl (o_src ob) (Some dl)))
| cs_disarm s ob : objs s h = Some ob -> cstep ok h s (set_obj_src s h (src_set_dl (o_src ob) None)).

Inductive lstep (ok : action -> Prop) (o : N) : st -> st -> Prop :=
| ls_c s s' : cstep ok o s s' -> lstep ok o s s'
| ls_running s v : lstep ok o s (set_running s v)
| ls_pending s : lstep ok o s (set_pending s Continue)
| ls_rereg s t : lstep ok o s (snd (disp_reregister s o t))
| ls_unreg s t : lstep ok o s (snd (disp_unregister s o t))
| ls_vacate s t : lstep ok o s (set_slots s (slot_set_obj (slots s) t None))
| ls_zombies s : lstep ok o s (set_zombies s [])
| ls_drop s x : lstep ok o s (maybe_drop s x).

Inductive dstep (ok : action -> Prop) (scr : scripts) : st -> st -> Prop :=
| ds_event s ev : halted s = false -> dstep ok scr s (fst (process_event scr s ev))
| ds_act s a : ok a -> dstep ok scr s (exec_action s a)
| ds_bs s o code : dstep ok scr s (emit (set_bsn s (fupd (bsn s) o (S (bsn s o)))) (L T_BS [zN o; zN code]))
| ds_synth s v : dstep ok scr s (set_synth s v)
| ds_panic s k : dstep ok scr s (panic s k)
| ds_emit s l : dstep ok scr s (emit s l)
| ds_poll s t order : dstep ok scr s (set_en s (snd (poll (en s) t order)))
| ds_idles s : dstep ok scr s (set_idles s [])
| ds_ridle s v : dstep ok scr s (set_ridle s v).

Lemma exec_actions_steps (ok : action -> Prop) (step : st -> st -> Prop) l : (forall s a, ok a -> step s (exec_action s a)) -> Forall ok l ->
  forall s, star step s (exec_actions s l).
Proof.
  intros Hs. unfold exec_actions. induction 1 as [|a l Ha _ IH]; intros s; cbn [fold_left]; [apply star_refl|].
  eapply star_cons; [apply Hs; exact Ha|apply IH].
Qed.
Lemma callback_star (ok : action -> Prop) scr (Hscr : scripts_ok ok scr) s h sub p : star (cstep ok h) s (fst (callback scr s h sub p)).
Proof.
  unfold callback. cbn [fst]. eapply star_cons; [apply cs_cb|]. apply (exec_actions_steps ok); [apply cs_act|]. apply scripts_ok_nth. exact Hscr.
Qed.
Lemma chan_loop_star (ok : action -> Prop) scr (Hscr : scripts_ok ok scr) fuel : forall s h c, star (cstep ok h) s (fst (fst (chan_loop scr fuel s h c))).
Proof.
  induction fuel as [|f IH]; intros s h c; cbn [chan_loop]; [apply star_refl|].
  destruct (halted s); [apply star_refl|]. destruct (chans (en s) c) as [ch|] eqn:Ec; [|apply star_refl].
  destruct (ch_q ch) as [|v q'] eqn:Eq.
  - destruct (ch_senders ch =? 0); [|apply star_refl].
    pose proof (callback_star ok scr Hscr s h 1%Z 0%Z) as C. destruct (callback scr s h 1%Z 0%Z) as [s2 sc]. exact C.
  - pose proof (cs_env ok h s _ (eo_pop (en s) c ch q')) as P.
    match goal with |- context [callback scr ?x h 0%Z v] => set (s1 := x) in * end.
    pose proof (callback_star ok scr Hscr s1 h 0%Z v) as C. destruct (callback scr s1 h 0%Z v) as [s2 sc]. cbn [fst] in C.
    eapply star_cons; [exact P|]. eapply star_trans; [exact C|apply IH; exact Hscr].
Qed.
Lemma ping_drain_star (ok : action -> Prop) s g t h : star (cstep ok h) s (fst (fst (ping_drain s g t))).
Proof.
  unfold ping_drain. destruct (opt_tok_is (g_tok g) t); [|apply star_refl].
  pose proof (cs_env ok h s _ (eo_read (en s) (g_fd g))) as R. destruct (fd_read (en s) (g_fd g)) as [e1 v]. cbn [fst] in R.
  destruct (v =? 0); apply star_one; exact R.
Qed.

(* the deadline a timer callback returns is written over the source as process_events found it: the callback cannot have changed it *)
Lemma timer_fire_star (ok : action -> Prop) scr (Hscr : scripts_ok ok scr) s o ob tm tk c dl sub (wrap : timer -> src) :
  is_running s o = true -> objs s o = Some ob -> o_src ob = wrap tm -> tm_reg tm = Some (tk, c) ->
  (forall dl', src_set_dl (wrap tm) dl' = wrap (mkTimer (tm_reg tm) dl' (tm_en tm))) ->
  let (s1, sc) := callback scr s o sub dl in
  star (cstep ok o) s s1 /\
  star (cstep ok o) s (set_obj_src (eenv s1 (fun e => set_whl e (wh_insert_reuse (whl e) c (sc_arg sc) tk))) o (wrap (mkTimer (Some (tk, c)) (Some (sc_arg sc)) (tm_en tm)))) /\
  star (cstep ok o) s (set_obj_src s1 o (wrap (mkTimer (Some (tk, c)) None (tm_en tm)))).
Proof.
  intros Hr Eo Es Er Wd. pose proof (callback_star ok scr Hscr s o sub dl) as C. pose proof (callback_keeps_src scr s o sub dl o Hr ob Eo) as [ob1 [E1 S1]].
  destruct (callback scr s o sub dl) as [s1 sc]. cbn [fst] in *. split; [exact C|].
  rewrite <- Er, <- !Wd, <- Es, <- S1. split; (eapply star_snoc; [exact C|]).
  - apply cs_rearm. exact E1.
  - apply cs_disarm. exact E1.
Qed.

Lemma obj_process_star (ok : action -> Prop) scr (Hscr : scripts_ok ok scr) s o ev : is_running s o = true -> star (cstep ok o) s (fst (obj_process scr s o ev)).
Proof.
  intros Hr. unfold obj_process. destruct (objs s o) as [ob|] eqn:Eo; [|apply star_refl].
  destruct (o_src ob) as [lc own subs tmr|g|tm|c g] eqn:Es.
  - destruct (if opt_tok_is own _ then _ else _) as [j|].
    + pose proof (callback_star ok scr Hscr s o j (zN (rd_code (ev_rd ev)))) as C. destruct (callback scr s o j _) as [s1 sc]. exact C.
    + destruct tmr as [tm|]; [|apply star_refl]. cbn [fst]. unfold timer_sub_fire.
      destruct (tm_reg tm) as [[tk c]|] eqn:Er; [|apply star_refl]. destruct (tm_dl tm) as [dl|]; [|apply star_refl].
      destruct (tok_eqb tk _); [|apply star_refl].
      pose proof (timer_fire_star ok scr Hscr s o ob tm tk c dl (Z.of_nat (S (length subs))) (fun tm' => SComp lc own subs (Some tm')) Hr Eo Es Er) as F.
      destruct (callback scr s o _ dl) as [s1 sc]. destruct F as (A & B & C); try reflexivity.
      destruct (sc_ret sc) as [|[p|p|]]; assumption.
  - pose proof (ping_drain_star ok s g (unpack (ev_key ev)) o) as P. destruct (ping_drain s g _) as [[s1 r] pinged]. cbn [fst] in *.
    destruct pinged; [|exact P]. eapply star_trans; [exact P|apply callback_star; exact Hscr].
  - destruct (tm_reg tm) as [[tk c]|] eqn:Er; [|apply star_refl]. destruct (tm_dl tm) as [dl|]; [|apply star_refl].
    destruct (tok_eqb tk _); [|apply star_refl].
    pose proof (timer_fire_star ok scr Hscr s o ob tm tk c dl 0%Z STimer Hr Eo Es Er) as F.
    destruct (callback scr s o 0%Z dl) as [s1 sc]. destruct F as (A & B & C); try reflexivity.
    destruct (sc_ret sc) as [|[p|p|]]; assumption.
  - pose proof (ping_drain_star ok s g (unpack (ev_key ev)) o) as P. destruct (ping_drain s g _) as [[s1 r] pinged]. cbn [fst] in *.
    destruct r as [act|]; [|exact P]. eapply star_trans; [exact P|].
    destruct pinged.
    + pose proof (chan_loop_star ok scr Hscr (chan_max (en s) c) s1 o c) as Lp. destruct (chan_loop scr _ s1 o c) as [[s2 clear] disc]. cbn [fst] in Lp.
      destruct disc; [exact Lp|]. destruct clear; [exact Lp|]. eapply star_snoc; [exact Lp|apply cs_env, eo_write].
    + cbn [fst]. apply star_one. apply cs_env, eo_write.
Qed.

Lemma apply_post_star (ok : action -> Prop) s o reg r : star (lstep ok o) s (snd (apply_post s o reg r)).
Proof.
  unfold apply_post. destruct r.
  - apply star_refl.
  - pose proof (ls_rereg ok o s reg) as S. destruct (disp_reregister s o reg) as [[rs d] sx]. apply star_one. exact S.
  - pose proof (ls_unreg ok o s reg) as S. destruct (disp_unregister s o reg) as [[rs d] sx]. apply star_one. exact S.
  - cbn [snd]. destruct (slot_get (slots s) reg); [apply star_one; apply ls_vacate|apply star_refl].
Qed.
Lemma drop_zombies_star (ok : action -> Prop) o l : forall s, star (lstep ok o) s (drop_zombies s l).
Proof. induction l as [|x l IH]; intros s; cbn; [apply star_refl|]. eapply star_cons; [apply ls_drop|apply IH]. Qed.
Lemma end_processing_star (ok : action -> Prop) s o : star (lstep ok o) s (end_processing s o).
Proof.
  unfold end_processing. eapply star_cons; [apply (ls_running ok o s None)|]. eapply star_cons; [apply ls_zombies|].
  eapply star_cons; [apply ls_drop|apply drop_zombies_star].
Qed.
Lemma post_phase_star (ok : action -> Prop) s2 o reg ret : star (lstep ok o) s2 (snd (post_phase s2 o reg ret)).
Proof.
  unfold post_phase. eapply star_cons; [apply (ls_running ok o s2 None)|]. eapply star_cons; [apply ls_pending|].
  destruct ret as [r|]; [apply apply_post_star|apply star_refl].
Qed.
Lemma process_event_star_at (ok : action -> Prop) scr (Hscr : scripts_ok ok scr) s ev sl o :
  slot_get (slots s) (forget_sub_id (unpack (ev_key ev))) = Some sl -> s_obj sl = Some o -> star (lstep ok o) s (fst (process_event scr s ev)).
Proof.
  intros Esl Eo. rewrite (process_event_phases scr s ev sl o Esl Eo). cbv zeta. set (reg := forget_sub_id (unpack (ev_key ev))).
  pose proof (obj_process_star ok scr Hscr (set_running s (Some (o, reg))) o ev (is_running_set_running s o reg)) as P.
  destruct (obj_process scr _ o ev) as [s2 ret]. cbn [fst] in P.
  assert (S2 : star (lstep ok o) s s2) by (eapply star_cons; [apply ls_running|]; eapply star_lift; [apply ls_c|exact P]).
  destruct (halted s2); [exact S2|].
  pose proof (post_phase_star ok s2 o reg ret) as A. destruct (post_phase s2 o reg ret) as [b s5]. cbn [snd] in A.
  assert (S5 : star (lstep ok o) s s5) by (eapply star_trans; eassumption).
  destruct (halted s5); [exact S5|]. cbn [fst]. eapply star_trans; [|apply end_processing_star].
  destruct (slot_vacant_for s5 reg); [eapply star_snoc; [exact S5|apply ls_unreg]|exact S5].
Qed.
(* the form for a fact that holds of lstep o whatever o is; an event whose token does not resolve is skipped (any o will do) *)
Lemma process_event_star (ok : action -> Prop) scr (Hscr : scripts_ok ok scr) s ev : exists o, star (lstep ok o) s (fst (process_event scr s ev)).
Proof.
  destruct (slot_get (slots s) (forget_sub_id (unpack (ev_key ev)))) as [sl|] eqn:Esl.
  2:{ exists 0. unfold process_event. rewrite Esl. apply star_refl. }
  destruct (s_obj sl) as [o|] eqn:Eo; [exists o; eapply process_event_star_at; eassumption|].
  exists 0. unfold process_event. rewrite Esl, Eo. apply star_refl.
Qed.

Lemma process_events_star (ok : action -> Prop) scr evs : forall s, halted s = false -> star (dstep ok scr) s (fst (process_events scr s evs)).
Proof.
  induction evs as [|ev r IH]; intros s Hh; cbn [process_events]; [apply star_refl|].
  pose proof (ds_event ok scr s ev Hh) as E. pose proof (process_event_ok_not_halted scr s ev Hh) as NH.
  destruct (process_event scr s ev) as [s1 b]. cbn [fst snd] in *.
  destruct b; [|apply star_one; exact E]. eapply star_cons; [exact E|]. apply IH. apply NH. reflexivity.
Qed.
Lemma before_sleep_loop_star (ok : action -> Prop) (scr : scripts) bscr l : forall s, star (dstep ok scr) s (fst (before_sleep_loop bscr s l)) /\
  (snd (before_sleep_loop bscr s l) = BSOk -> halted (fst (before_sleep_loop bscr s l)) = halted s).
Proof.
  induction l as [|t l IH]; intros s; cbn [before_sleep_loop]; [split; [apply star_refl|reflexivity]|].
  destruct (lc_lookup s t) as [o|]; [|split; [apply star_one; apply ds_panic|discriminate]].
  pose proof (ds_bs ok scr s o (nth (bsn s o) (bscr o) 0)) as B. set (s1 := emit _ _) in *.
  destruct (nth _ _ _) as [|[p|p|]]; try (split; [apply star_one; exact B|discriminate]).
  - destruct (IH s1) as [A C]. split; [eapply star_cons; eassumption|exact C].
  - destruct (match objs s1 o with Some _ => _ | None => _ end) as [tk|].
    + match goal with |- context [before_sleep_loop bscr ?x l] => destruct (IH x) as [A C] end.
      split; [eapply star_cons; [exact B|]; eapply star_cons; [apply ds_synth|exact A]|exact C].
    + destruct (IH s1) as [A C]. split; [eapply star_cons; eassumption|exact C].
Qed.
Lemma before_handle_loop_star (ok : action -> Prop) (scr : scripts) l polled : forall s, star (dstep ok scr) s (fst (before_handle_loop s l polled)) /\
  (snd (before_handle_loop s l polled) = true -> halted (fst (before_handle_loop s l polled)) = halted s).
Proof.
  induction l as [|t l IH]; intros s; cbn [before_handle_loop]; [split; [apply star_refl|reflexivity]|].
  destruct (lc_lookup s t) as [o|]; [|split; [apply star_one; apply ds_panic|discriminate]].
  match goal with |- context [before_handle_loop ?x l polled] => destruct (IH x) as [A C] end.
  split; [|exact C]. eapply star_cons; [apply ds_emit|exact A].
Qed.
Lemma run_idles_star (ok : action -> Prop) scr (Hscr : scripts_ok ok scr) l : forall s, star (dstep ok scr) s (run_idles scr s l).
Proof.
  induction l as [|i l IH]; intros s; cbn [run_idles]; [apply star_refl|].
  destruct (halted s); [apply star_refl|]. destruct (idle_cancelled s i); [apply IH|].
  match goal with |- context [exec_actions ?x ?a] => set (s1 := x); set (acts := a) end.
  assert (E : star (dstep ok scr) s (exec_actions s1 acts)).
  { eapply star_cons; [apply ds_emit|]. eapply star_cons; [apply ds_ridle|]. apply (exec_actions_steps ok); [apply ds_act|]. apply scripts_ok_nth. exact Hscr. }
  destruct (halted (exec_actions s1 acts)); [exact E|].
  eapply star_trans; [exact E|]. eapply star_cons; [apply ds_ridle|apply IH].
Qed.
Lemma emits_star (ok : action -> Prop) (scr : scripts) l : forall s, star (dstep ok scr) s (emits s l).
Proof. unfold emits. induction l as [|x l IH]; intros s; cbn [fold_left]; [apply star_refl|]. eapply star_cons; [apply ds_emit|apply IH]. Qed.
Lemma dispatch_star (ok : action -> Prop) scr (Hscr : scripts_ok ok scr) bscr s t order : halted s = false -> star (dstep ok scr) s (dispatch scr bscr s t order).
Proof.
  intros Hh. unfold dispatch. destruct (before_sleep_loop_star ok scr bscr (lifecycle s) s) as [B BH].
  destruct (before_sleep_loop bscr s (lifecycle s)) as [s1 bs]. cbn [fst snd] in *.
  destruct bs; [|eapply star_snoc; [exact B|apply ds_emit]|exact B].
  pose proof (ds_poll ok scr s1 t order) as P. destruct (poll (en s1) t order) as [polled e2]. cbn [snd] in P.
  set (s3 := emit (set_en s1 e2) _).
  assert (S3 : star (dstep ok scr) s s3) by (eapply star_snoc; [eapply star_snoc; [exact B|exact P]|apply ds_emit]).
  destruct (before_handle_loop_star ok scr (lifecycle s3) polled s3) as [H HH].
  destruct (before_handle_loop s3 _ polled) as [s4 b]. cbn [fst snd] in *.
  assert (S4 : star (dstep ok scr) s s4) by (eapply star_trans; eassumption).
  destruct b; cbn [negb]; [|exact S4].
  assert (H4 : halted (set_synth s4 []) = false) by (cbn; rewrite HH by reflexivity; cbn; rewrite BH by reflexivity; exact Hh).
  pose proof (process_events_star ok scr (synth s4 ++ polled) (set_synth s4 []) H4) as E.
  destruct (process_events scr _ _) as [s5 ok2]. cbn [fst] in E.
  assert (S5 : star (dstep ok scr) s s5).
  { eapply star_trans; [eapply star_snoc; [exact S4|apply ds_synth]|exact E]. }
  destruct (halted s5); [exact S5|]. destruct ok2; cbn [negb]; [|eapply star_snoc; [exact S5|apply ds_emit]].
  assert (S6 : star (dstep ok scr) s (run_idles scr (set_idles s5 []) (idles s5))).
  { eapply star_trans; [eapply star_snoc; [exact S5|apply ds_idles]|apply run_idles_star; exact Hscr]. }
  destruct (halted (run_idles scr _ _)); [exact S6|]. eapply star_snoc; [exact S6|apply ds_emit].
Qed.
Lemma exec_cmd_star (ok : action -> Prop) scr (Hscr : scripts_ok ok scr) bscr s c : cmd_ok ok c -> star (dstep ok scr) s (exec_cmd scr bscr s c).
Proof.
  intros Hc. unfold exec_cmd. destruct (halted s) eqn:Hh; [apply star_refl|].
  eapply star_cons; [apply ds_emit|].
  destruct c; [apply star_one; apply ds_act; exact Hc|apply dispatch_star; [exact Hscr|exact Hh]|apply emits_star|apply emits_star].
Qed.
Lemma exec_cmds_star (ok : action -> Prop) scr (Hscr : scripts_ok ok scr) bscr cmds : Forall (cmd_ok ok) cmds -> forall s, star (dstep ok scr) s (fold_left (exec_cmd scr bscr) cmds s).
Proof.
  induction 1 as [|c r Hc _ IH]; intros s; cbn [fold_left]; [apply star_refl|].
  eapply star_trans; [apply exec_cmd_star; [exact Hscr|exact Hc]|apply IH].
Qed.
