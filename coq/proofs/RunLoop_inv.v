From CV Require Import Base RunLoop.
Open Scope N_scope.

Definition is_half (t : rthread) : bool := match rt_stage t with RHalf => true | _ => false end.
Fixpoint nhalf (l : list rthread) : N := match l with [] => 0 | t :: r => (if is_half t then 1 else 0) + nhalf r end.
Lemma nhalf_upd l : forall i t t', nth_error l i = Some t ->
  nhalf (upd_rt l i t') + (if is_half t then 1 else 0) = nhalf l + (if is_half t' then 1 else 0).
Proof. induction l as [|x r IH]; intros [|i] t t' H; cbn in *; try discriminate; [injection H as ->; lia|specialize (IH i t t' H); lia]. Qed.
Lemma upd_rt_same l : forall i t, nth_error l i = Some t -> upd_rt l i t = l.
Proof. induction l as [|x r IH]; intros [|i] t H; cbn in *; try discriminate; [congruence|f_equal; auto]. Qed.

Definition waiting (s : rst) : bool := match pc s with LWaiting => true | _ => false end.
Definition before_swap (s : rst) : bool := match pc s with L0 | L1 | L2 | L2b | LDone _ => true | _ => false end.

(* - the loop is never blocked while a notification is pending (a wake-up issued before the wait is not lost)
   - run()/block_on() only see the stop flag set if stop() was called after the initial reset
   - a set future_ready flag always has something on its way that will bring the loop to poll the future *)
Definition rinv (s : rst) : Prop :=
  (notif s = true -> waiting s = false) /\
  (stopf s = true -> pc s = L0 \/ stop_req s = true) /\
  (forall b, pc s = LDone b -> b = false -> stop_req s = true) /\
  (blockon s = true -> readyf s = true -> before_swap s = true \/ notif s = true \/ 1 <= nhalf (rthr s)).

Ltac brute :=
  cbn in *;
  repeat match goal with
         | |- context [if ?b then _ else _] => destruct b
         | H : context [if ?b then _ else _] |- _ => destruct b
         end;
  cbn in *; intuition (try discriminate; try congruence; try lia).

Lemma rinv_loop_step s : rinv s -> rinv (loop_step s).
Proof.
  destruct s as [bo st rd nt p f th sr ia po wk lg]. unfold rinv, loop_step, waiting, before_swap, after_wait.
  cbn [blockon stopf readyf notif pc fut rthr stop_req iters_after_stop polls wakes rlog].
  destruct p as [| | | | | | |b0].
  - brute.
  - brute.
  - destruct rd; [destruct f as [|n f]; [|destruct n as [|[[| |]|[| |]|]]]|]; brute.
  - brute.
  - brute.
  - brute.
  - brute.
  - brute.
Qed.

(* The other threads enter rinv only through nhalf, and a thread's step is one of three writes to the shared flags (or none):
   a notify, stop's store, the waker's store. *)
Lemma rinv_set_rthr s l : (1 <= nhalf (rthr s) -> 1 <= nhalf l) -> rinv s -> rinv (set_rthr s l).
Proof.
  intros H (A & B & C & D). repeat split; try assumption. intros Hb Hr. cbn [blockon readyf set_rthr] in Hb, Hr.
  destruct (D Hb Hr) as [X|[X|X]]; [left; exact X|right; left; exact X|right; right; apply H; exact X].
Qed.
Lemma rinv_notify s lg l : rinv s -> rinv (set_rthr (do_notify s lg) l).
Proof.
  destruct s as [bo st rd nt p f th sr ia po wk lg0]. unfold rinv, do_notify, waiting, before_swap, after_wait, set_rthr.
  cbn [blockon stopf readyf notif pc fut rthr stop_req iters_after_stop polls wakes rlog]. destruct p; brute.
Qed.
Lemma rinv_stop s lg : rinv s ->
  rinv (mkR (blockon s) true (readyf s) (notif s) (pc s) (fut s) (rthr s) (match pc s with L0 => stop_req s | _ => true end)
            (iters_after_stop s) (polls s) (wakes s) lg).
Proof.
  destruct s as [bo st rd nt p f th sr ia po wk lg0]. unfold rinv, waiting, before_swap.
  cbn [blockon stopf readyf notif pc fut rthr stop_req iters_after_stop polls wakes rlog]. destruct p; brute.
Qed.
Lemma rinv_store s w lg l : 1 <= nhalf l -> rinv s ->
  rinv (set_rthr (mkR (blockon s) (stopf s) true (notif s) (pc s) (fut s) (rthr s) (stop_req s) (iters_after_stop s) (polls s) w lg) l).
Proof.
  intros Hl (A & B & C & D). repeat split; try assumption. intros _ _. right. right. exact Hl.
Qed.

Lemma rinv_thread_step s i t : rinv s -> nth_error (rthr s) i = Some t ->
  rinv (let (s', t') := rt_step s i t in set_rthr s' (upd_rt (rthr s) i t')).
Proof.
  intros Hinv En. pose proof (nhalf_upd (rthr s) i t) as NU. destruct t as [ops stg]. unfold rt_step. cbn [rt_stage rt_ops].
  destruct stg; [destruct ops as [|[] r]|..].
  - rewrite (upd_rt_same _ _ _ En). destruct s; exact Hinv.
  - (* stop *) apply (rinv_set_rthr (mkR _ _ _ _ _ _ _ _ _ _ _ _)); [|apply rinv_stop; exact Hinv].
    specialize (NU (mkRT r RIdle) En). cbn in NU |- *. lia.
  - (* wakeup *) apply rinv_notify. exact Hinv.
  - (* wake, fetching the waker: only the trace changes *) apply (rinv_set_rthr (mkR _ _ _ _ _ _ _ _ _ _ _ _)); [|destruct s; exact Hinv].
    specialize (NU (mkRT r RPre) En). cbn in NU |- *. lia.
  - (* wake, the store: the thread is now between store and notify *) apply rinv_store; [|exact Hinv]. specialize (NU (mkRT ops RHalf) En). cbn in NU. lia.
  - (* wake, the notify *) apply rinv_notify. exact Hinv.
Qed.

Lemma rinv_step s k : rinv s -> rinv (r_step s k).
Proof.
  intros H. destruct k as [|i]; cbn [r_step]; [apply rinv_loop_step; exact H|].
  destruct (nth_error (rthr s) i) as [t|] eqn:En; [|exact H]. apply rinv_thread_step; assumption.
Qed.

Lemma nhalf_init progs : nhalf (map (fun p => mkRT p RIdle) progs) = 0.
Proof. induction progs as [|p r IH]; cbn; [reflexivity|exact IH]. Qed.
Lemma rinv_init bo f progs : rinv (r_init bo f progs).
Proof. unfold rinv, r_init, waiting, before_swap; cbn. repeat split; intros; try discriminate; auto. Qed.
Lemma rinv_run bo f progs sched : rinv (r_run bo f progs sched).
Proof.
  unfold r_run. generalize (rinv_init bo f progs). generalize (r_init bo f progs).
  induction sched as [|k r IH]; intros s Hs; cbn; [exact Hs|]. apply IH. apply rinv_step. exact Hs.
Qed.
