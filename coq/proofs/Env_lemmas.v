(* Lemmas about the environment model (Env.v): epoll table and timer wheel. *)
From CV Require Import Base Env.
Open Scope N_scope.

Lemma ep_find_remove tbl fd : ep_find (ep_remove tbl fd) fd = None.
Proof.
  induction tbl as [|e t IH]; cbn; [reflexivity|].
  destruct (N.eqb_spec (e_fd e) fd) as [E|E]; [exact IH|]. cbn. destruct (N.eqb_spec (e_fd e) fd); [contradiction|exact IH].
Qed.
Lemma ep_find_remove_other tbl fd fd' : fd' <> fd -> ep_find (ep_remove tbl fd) fd' = ep_find tbl fd'.
Proof.
  intros H. induction tbl as [|e t IH]; cbn; [reflexivity|].
  destruct (N.eqb_spec (e_fd e) fd) as [E|E].
  - destruct (N.eqb_spec (e_fd e) fd'); [congruence|exact IH].
  - cbn. destruct (N.eqb_spec (e_fd e) fd'); [reflexivity|exact IH].
Qed.
(* DEL of a registered fd leaves no entry for it; the other fds keep theirs *)
Lemma ep_del_spec tbl fd tbl' : ep_del tbl fd = Some tbl' ->
  ep_find tbl' fd = None /\ forall fd', fd' <> fd -> ep_find tbl' fd' = ep_find tbl fd'.
Proof.
  unfold ep_del. destruct (ep_find tbl fd); [|discriminate]. intros [= <-].
  split; [apply ep_find_remove|intros; apply ep_find_remove_other; assumption].
Qed.
Lemma ep_find_replace tbl e' : forall fd', ep_find (ep_replace tbl e') fd' =
  if e_fd e' =? fd' then match ep_find tbl fd' with Some _ => Some e' | None => None end else ep_find tbl fd'.
Proof.
  induction tbl as [|x t IH]; intros fd'; cbn; [destruct (e_fd e' =? fd'); reflexivity|].
  destruct (N.eqb_spec (e_fd x) (e_fd e')) as [E|NE]; cbn.
  - destruct (N.eqb_spec (e_fd e') fd') as [E2|NE2].
    + rewrite E, E2, N.eqb_refl. reflexivity.
    + rewrite E. destruct (N.eqb_spec (e_fd e') fd'); [contradiction|reflexivity].
  - rewrite IH. destruct (N.eqb_spec (e_fd x) fd') as [E3|NE3].
    + destruct (N.eqb_spec (e_fd e') fd'); [congruence|reflexivity].
    + reflexivity.
Qed.
Lemma ep_mod_spec tbl fd it m key c tbl' : ep_mod tbl fd it m key c = Some tbl' ->
  (exists old, ep_find tbl fd = Some old) /\ (exists q, ep_find tbl' fd = Some (mkEp fd it m key q)) /\
  forall fd', fd' <> fd -> ep_find tbl' fd' = ep_find tbl fd'.
Proof.
  unfold ep_mod. destruct (ep_find tbl fd) as [old|] eqn:E; [|discriminate]. intros [= <-].
  split; [exists old; reflexivity|]. split.
  - eexists. rewrite ep_find_replace. cbn. rewrite N.eqb_refl, E. reflexivity.
  - intros fd' H. rewrite ep_find_replace. cbn. destruct (N.eqb_spec fd fd'); [congruence|reflexivity].
Qed.
Lemma ep_del_none tbl fd : ep_find tbl fd = None -> ep_del tbl fd = None.
Proof. unfold ep_del; intros ->; reflexivity. Qed.
Lemma ep_find_app tbl e fd : ep_find (tbl ++ [e]) fd =
  match ep_find tbl fd with Some x => Some x | None => if e_fd e =? fd then Some e else None end.
Proof. induction tbl as [|x t IH]; cbn; [reflexivity|]. destruct (e_fd x =? fd); [reflexivity|exact IH]. Qed.
(* ADD fails exactly when the fd is already registered (EEXIST), and otherwise records interest, mode and key *)
Lemma ep_add_spec tbl fd it m key c :
  match ep_add tbl fd it m key c with
  | None => exists e, ep_find tbl fd = Some e
  | Some tbl' => ep_find tbl fd = None /\
                 (exists q, ep_find tbl' fd = Some (mkEp fd it m key q)) /\
                 forall fd', fd' <> fd -> ep_find tbl' fd' = ep_find tbl fd'
  end.
Proof.
  unfold ep_add. destruct (ep_find tbl fd) as [e|] eqn:E; [exists e; reflexivity|].
  split; [reflexivity|]. split.
  - eexists. rewrite ep_find_app, E. cbn. rewrite N.eqb_refl. reflexivity.
  - intros fd' H. rewrite ep_find_app. destruct (ep_find tbl fd'); [reflexivity|]. cbn.
    destruct (N.eqb_spec fd fd'); [congruence|reflexivity].
Qed.

(* a level-triggered entry that is ready for its interest is reported by every wait, with its key *)
Lemma ep_wait_level fdc tbl e :
  In e tbl -> e_mode e = Level -> rd_nonempty (ready_for (e_int e) (fdc (e_fd e))) = true ->
  In (mkEv (e_key e) (ready_for (e_int e) (fdc (e_fd e)))) (fst (ep_wait fdc tbl)).
Proof.
  induction tbl as [|x t IH]; intros Hin Hm Hr; [contradiction|]. cbn.
  destruct (ep_wait fdc t) as [evs t'] eqn:Ew. cbn [fst] in *.
  destruct Hin as [->|Hin].
  - unfold ep_report. rewrite Hr, Hm. left; reflexivity.
  - specialize (IH Hin Hm Hr). destruct (ep_report fdc x); [right|]; exact IH.
Qed.
(* one-shot: reported at most once per arming - after a report the entry is disarmed *)
Lemma ep_after_oneshot fdc e ev : e_mode e = OneShot -> ep_report fdc e = Some ev -> e_q (ep_after fdc e) = false.
Proof. intros Hm Hr. unfold ep_after. rewrite Hm, Hr. reflexivity. Qed.
Lemma ep_report_disarmed fdc e : e_mode e = OneShot -> e_q e = false -> ep_report fdc e = None.
Proof. intros Hm Hq. unfold ep_report. rewrite Hm, Hq. destruct (rd_nonempty _); reflexivity. Qed.
(* edge: a queued ready entry is reported *)
Lemma ep_report_edge fdc e : e_mode e = Edge -> e_q e = true -> rd_nonempty (ready_for (e_int e) (fdc (e_fd e))) = true ->
  ep_report fdc e = Some (mkEv (e_key e) (ready_for (e_int e) (fdc (e_fd e)))).
Proof. intros Hm Hq Hr. unfold ep_report. rewrite Hr, Hm, Hq. reflexivity. Qed.
(* only registered keys are ever reported *)
Lemma ep_wait_keys fdc tbl ev : In ev (fst (ep_wait fdc tbl)) -> exists e, In e tbl /\ ev_key ev = e_key e.
Proof.
  induction tbl as [|x t IH]; cbn; [contradiction|].
  destruct (ep_wait fdc t) as [evs t'] eqn:Ew. cbn [fst] in *.
  destruct (ep_report fdc x) as [r|] eqn:Er.
  - intros [<-|Hin].
    + exists x. split; [left; reflexivity|]. unfold ep_report in Er. destruct (rd_nonempty _); [|discriminate].
      destruct (e_mode x); [|destruct (e_q x)|destruct (e_q x)]; try discriminate; inversion Er; reflexivity.
    + destruct (IH Hin) as [e [A B]]. exists e. split; [right; exact A|exact B].
  - intros Hin. destruct (IH Hin) as [e [A B]]. exists e. split; [right; exact A|exact B].
Qed.

Lemma wh_min_in l m : wh_min l = Some m -> In m l.
Proof.
  revert m; induction l as [|e t IH]; cbn; intros m H; [discriminate|].
  destruct (wh_min t) as [m'|] eqn:E.
  - destruct (w_dl e <=? w_dl m')%Z; injection H as <-; [left; reflexivity|right; apply IH; reflexivity].
  - injection H as <-. left; reflexivity.
Qed.
Lemma wh_min_none l : wh_min l = None -> l = [].
Proof. destruct l as [|e t]; [reflexivity|]. cbn. destruct (wh_min t); [destruct (_ <=? _)%Z|]; discriminate. Qed.

Lemma wh_min_le l m : wh_min l = Some m -> forall e, In e l -> (w_dl m <= w_dl e)%Z.
Proof.
  revert m; induction l as [|x t IH]; cbn; intros m H e Hin; [contradiction|].
  destruct (wh_min t) as [m'|] eqn:E.
  - destruct (Z.leb_spec (w_dl x) (w_dl m')) as [L|L]; injection H as <-.
    + destruct Hin as [->|Hin]; [lia|]. specialize (IH m' eq_refl e Hin). lia.
    + destruct Hin as [->|Hin]; [lia|]. exact (IH m' eq_refl e Hin).
  - injection H as <-. destruct Hin as [->|Hin]; [lia|]. apply wh_min_none in E. subst t. contradiction.
Qed.
Lemma wh_remove_first_in l c dl e : In e (wh_remove_first l c dl) -> In e l.
Proof.
  induction l as [|x t IH]; cbn; [tauto|].
  destruct ((w_ctr x =? c) && (w_dl x =? w_dl x)%Z && (w_dl x =? dl)%Z); [intros H; right; exact H|].
  intros [->|H]; [left; reflexivity|right; apply IH; exact H].
Qed.
Lemma wh_remove_first_length l m : In m l -> S (length (wh_remove_first l (w_ctr m) (w_dl m))) = length l.
Proof.
  induction l as [|x t IH]; cbn; [contradiction|].
  intros Hin.
  destruct ((w_ctr x =? w_ctr m) && (w_dl x =? w_dl x)%Z && (w_dl x =? w_dl m)%Z) eqn:E; [reflexivity|].
  destruct Hin as [->|Hin].
  - rewrite N.eqb_refl, !Z.eqb_refl in E. discriminate.
  - cbn. rewrite IH; [reflexivity|exact Hin].
Qed.

(* the expiry loop: everything returned is due, in non-decreasing deadline order, and nothing due stays behind *)
Lemma wh_expire_spec fuel : forall l now ex rest,
  wh_expire fuel l now = (ex, rest) ->
  Forall (fun e => (w_dl e <= now)%Z) ex /\
  (forall e, In e ex -> In e l) /\ (forall e, In e rest -> In e l) /\
  (forall a b, In a ex -> In b rest -> (w_dl a <= w_dl b)%Z) /\
  (length l <= fuel -> Forall (fun e => (now < w_dl e)%Z) rest)%nat.
Proof.
  induction fuel as [|f IH]; intros l now ex rest H; cbn in H.
  - injection H as <- <-. repeat split; try constructor; try contradiction; auto.
    intros Hl. destruct l; [constructor|cbn in Hl; lia].
  - destruct (wh_min l) as [m|] eqn:Em.
    + destruct (Z.leb_spec (w_dl m) now) as [L|L].
      * destruct (wh_expire f _ now) as [ex' rest'] eqn:E. injection H as <- <-.
        destruct (IH _ _ _ _ E) as (A & B & C & D & F).
        pose proof (wh_min_in l m Em) as Hm. pose proof (wh_min_le l m Em) as Hle.
        repeat split.
        -- constructor; assumption.
        -- intros e [<-|He]; [exact Hm|]. eapply wh_remove_first_in. apply B; exact He.
        -- intros e He. eapply wh_remove_first_in. apply C; exact He.
        -- intros a b [<-|Ha] Hb; [apply Hle; eapply wh_remove_first_in; apply C; exact Hb|apply D; assumption].
        -- intros Hl. apply F. pose proof (wh_remove_first_length l m Hm). lia.
      * injection H as <- <-. repeat split; try constructor; try contradiction; auto.
        intros _. apply Forall_forall. intros e He. pose proof (wh_min_le l m Em e He). lia.
    + injection H as <- <-. apply wh_min_none in Em. subst l. repeat split; try constructor; try contradiction; auto.
Qed.

(* the popped entries come out in non-decreasing deadline order *)
Fixpoint dl_sorted (l : list went) : Prop :=
  match l with
  | [] => True
  | a :: r => (forall b, In b r -> (w_dl a <= w_dl b)%Z) /\ dl_sorted r
  end.
Lemma wh_expire_sorted fuel : forall l now ex rest, wh_expire fuel l now = (ex, rest) -> dl_sorted ex.
Proof.
  induction fuel as [|f IH]; intros l now ex rest H; cbn in H.
  - injection H as <- <-. exact I.
  - destruct (wh_min l) as [m|] eqn:Em; [|injection H as <- <-; exact I].
    destruct (w_dl m <=? now)%Z; [|injection H as <- <-; exact I].
    destruct (wh_expire f _ now) as [ex' rest'] eqn:E. injection H as <- <-.
    split; [|eapply IH; exact E].
    intros b Hb. apply (wh_min_le l m Em). eapply wh_remove_first_in.
    destruct (wh_expire_spec f _ _ _ _ E) as (_ & B & _). apply B. exact Hb.
Qed.

(* ---------- cancel: an arming that is cancelled leaves the wheel (as long as counters are unique in it) ---------- *)
Lemma wh_remove_first_unique l : forall m, In m l -> NoDup (map w_ctr l) ->
  ~ In (w_ctr m) (map w_ctr (wh_remove_first l (w_ctr m) (w_dl m))).
Proof.
  induction l as [|e t IH]; intros m Hin Hnd; cbn; [tauto|].
  inversion Hnd as [|x xs Hnot Hnd']; subst.
  destruct Hin as [->|Hin].
  - rewrite N.eqb_refl, !Z.eqb_refl. cbn. exact Hnot.
  - destruct (N.eqb_spec (w_ctr e) (w_ctr m)) as [E|E].
    + exfalso. apply Hnot. rewrite E. apply in_map. exact Hin.
    + cbn. intros [H|H]; [contradiction|]. exact (IH m Hin Hnd' H).
Qed.
Lemma wh_cancel_removes w c : NoDup (map w_ctr (wh_heap w)) -> ~ In c (map w_ctr (wh_heap (wh_cancel w c))).
Proof.
  intros Hnd. unfold wh_cancel. destruct (wh_min (wh_heap w)) as [m|] eqn:Em.
  - destruct (N.eqb_spec (w_ctr m) c) as [<-|Hne]; cbn.
    + apply wh_remove_first_unique; [apply wh_min_in; exact Em|exact Hnd].
    + rewrite in_map_iff. intros [e [He Hin]]. apply filter_In in Hin as [_ Hf]. subst c. rewrite N.eqb_refl in Hf. discriminate.
  - rewrite (wh_min_none _ Em). cbn. tauto.
Qed.
(* and it only removes: every other entry stays *)
Lemma wh_cancel_keeps w c e : In e (wh_heap w) -> w_ctr e <> c -> In e (wh_heap (wh_cancel w c)).
Proof.
  intros Hin Hne. unfold wh_cancel. destruct (wh_min (wh_heap w)) as [m|] eqn:Em; [|exact Hin].
  destruct (N.eqb_spec (w_ctr m) c) as [<-|Hne2]; cbn.
  - clear Em. induction (wh_heap w) as [|x t IH]; cbn in *; [tauto|].
    destruct Hin as [->|Hin].
    + destruct (N.eqb_spec (w_ctr e) (w_ctr m)); [contradiction|]. cbn. left. reflexivity.
    + destruct ((w_ctr x =? w_ctr m) && (w_dl x =? w_dl x)%Z && (w_dl x =? w_dl m)%Z); [exact Hin|right; apply IH; exact Hin].
  - apply filter_In. split; [exact Hin|]. destruct (N.eqb_spec (w_ctr e) c); [contradiction|reflexivity].
Qed.
Lemma wh_cancel_subset w c e : In e (wh_heap (wh_cancel w c)) -> In e (wh_heap w).
Proof.
  unfold wh_cancel. destruct (wh_min (wh_heap w)) as [m|]; [|tauto].
  destruct (w_ctr m =? c); cbn; [apply wh_remove_first_in|intros H; apply filter_In in H; tauto].
Qed.
(* the wait of a dispatch is bounded by the earliest deadline in the wheel: after a cancel that is the earliest deadline among
   the OTHER armings - the cancelled one no longer shortens any wait *)
Lemma wh_next_after_cancel w c d : NoDup (map w_ctr (wh_heap w)) -> wh_next_deadline (wh_cancel w c) = Some d ->
  exists e, In e (wh_heap w) /\ w_ctr e <> c /\ w_dl e = d /\ forall e', In e' (wh_heap w) -> w_ctr e' <> c -> (d <= w_dl e')%Z.
Proof.
  intros Hnd H. unfold wh_next_deadline in H. destruct (wh_min (wh_heap (wh_cancel w c))) as [m|] eqn:Em; [|discriminate].
  injection H as <-. exists m. pose proof (wh_min_in _ _ Em) as Hin.
  split; [apply (wh_cancel_subset w c); exact Hin|]. split.
  - intros Hc. apply (wh_cancel_removes w c Hnd). apply in_map_iff. exists m. split; [exact Hc|exact Hin].
  - split; [reflexivity|]. intros e' He' Hne. apply (wh_min_le _ _ Em). apply wh_cancel_keeps; assumption.
Qed.
Lemma wh_next_none_after_cancel w c : wh_next_deadline (wh_cancel w c) = None -> forall e, In e (wh_heap w) -> w_ctr e = c.
Proof.
  intros H e He. unfold wh_next_deadline in H. destruct (wh_min (wh_heap (wh_cancel w c))) as [m|] eqn:Em; [discriminate|].
  apply wh_min_none in Em. destruct (N.eq_dec (w_ctr e) c) as [E|E]; [exact E|].
  pose proof (wh_cancel_keeps w c e He E) as K. rewrite Em in K. contradiction.
Qed.
