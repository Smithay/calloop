From CV Require Import Base Consts ConcPing.
Open Scope N_scope.

Fixpoint sum_mine (l : list pthread) : N := match l with [] => 0 | t :: r => pt_mine t + sum_mine r end.
Fixpoint nclosing (l : list pthread) : N := match l with [] => 0 | t :: r => (if pt_closing t then 1 else 0) + nclosing r end.

(* the counter encodes exactly the undrained pings and the close marker; the strong count is the number of handles the
   threads hold; at most one close marker is ever written (or about to be), and only when no handle is left *)
Definition cinv (s : cpst) : Prop :=
  ctr s = 2 * undrained s + (if closemark s then 1 else 0) /\
  handles s = sum_mine (thr s) + (if lt_cbhandle (lp s) then 1 else 0) /\
  Forall (fun t => wf_prog (pt_mine t) (pt_ops t) = true) (thr s) /\
  nclosing (thr s) + closes s <= 1 /\
  (0 < nclosing (thr s) + closes s -> handles s = 0) /\
  (closemark s = true -> closes s = 1) /\
  (registered s = false -> closes s = 1 /\ closemark s = false /\ undrained s = 0) /\
  (lt_stage (lp s) <> LIdle -> registered s = true).

Lemma thr_upd l : forall i t t', nth_error l i = Some t ->
  Forall (fun t => wf_prog (pt_mine t) (pt_ops t) = true) l -> wf_prog (pt_mine t') (pt_ops t') = true ->
  sum_mine (upd_thr l i t') + pt_mine t = sum_mine l + pt_mine t' /\
  nclosing (upd_thr l i t') + (if pt_closing t then 1 else 0) = nclosing l + (if pt_closing t' then 1 else 0) /\
  Forall (fun t => wf_prog (pt_mine t) (pt_ops t) = true) (upd_thr l i t').
Proof.
  induction l as [|x r IH]; intros [|i] t t' H F W; cbn in *; try discriminate; inversion F; subst.
  - injection H as ->. split; [lia|split; [lia|constructor; assumption]].
  - destruct (IH i t t' H) as (A & B & C); try assumption. split; [lia|split; [lia|constructor; assumption]].
Qed.
Lemma upd_thr_same l : forall i t, nth_error l i = Some t -> upd_thr l i t = l.
Proof. induction l as [|x r IH]; intros [|i] t H; cbn in *; try discriminate; [congruence|f_equal; auto]. Qed.
Lemma sum_mine_ge l i t : nth_error l i = Some t -> pt_mine t <= sum_mine l.
Proof. revert i; induction l as [|x r IH]; intros [|i] H; cbn in *; try discriminate; [injection H as ->; lia|specialize (IH i H); lia]. Qed.
Lemma nclosing_ge l i t : nth_error l i = Some t -> pt_closing t = true -> 1 <= nclosing l.
Proof. revert i; induction l as [|x r IH]; intros [|i] H Hc; cbn in *; try discriminate; [injection H as ->; rewrite Hc; lia|specialize (IH i H Hc); lia]. Qed.

Ltac pcbn := cbn [ctr handles registered lp thr undrained closemark closes tr pt_mine pt_ops pt_closing lt_stage lt_ops lt_cbpings lt_cbhandle].
Ltac csplit := unfold cinv; pcbn; split; [|split; [|split; [|split; [|split; [|split; [|split]]]]]].

Lemma drain_close_iff s : cinv s -> N.odd (ctr s) = closemark s.
Proof.
  intros (I1 & _). rewrite I1. destruct (closemark s); [rewrite N.add_1_r, N.odd_succ, N.even_mul; reflexivity|rewrite N.add_0_r, N.odd_mul; reflexivity].
Qed.

Lemma cinv_step s k : cinv s -> cinv (cp_step s k).
Proof.
  intros Hinv. pose proof Hinv as (I1 & I2 & I3 & I4 & I5 & I6 & I7 & I8). destruct k as [|i]; cbn [cp_step].
  - (* the loop thread *)
    unfold lp_step. destruct (lt_stage (lp s)) eqn:Est.
    + destruct (lt_ops (lp s)) as [|[] r]; [exact Hinv|].
      destruct (registered s && (0 <? ctr s)) eqn:Ec.
      * apply andb_prop in Ec as [Er _]. csplit; try assumption; try (intros; discriminate). intros _. exact Er.
      * csplit; try assumption; try (intros H; exfalso; apply H; reflexivity).
    + (* drain *)
      assert (Hr : registered s = true) by (apply I8; discriminate).
      rewrite (drain_close_iff s Hinv). destruct (closemark s) eqn:Ecm.
      * (* the close marker: the source removes itself *)
        rewrite andb_false_r. cbn [negb andb]. csplit; try assumption; try reflexivity; try discriminate.
        -- intros _. split; [apply I6; reflexivity|split; reflexivity].
        -- intros H. exfalso. apply H. reflexivity.
      * cbn [negb]. rewrite andb_true_r.
        destruct (2 <=? ctr s); destruct (lt_cbpings (lp s)) as [|lcb']; cbn [andb pred];
          csplit; try assumption; try reflexivity; try discriminate;
          try (intros H; exfalso; apply H; reflexivity); try (intros _; exact Hr); try (intros Hf; congruence).
    + (* the callback's own ping *)
      assert (Hr : registered s = true) by (apply I8; discriminate).
      csplit; try assumption; try discriminate.
      * rewrite I1. unfold INCREMENT_PING. lia.
      * intros Hf. congruence.
      * intros H. exfalso. apply H. reflexivity.
  - (* a pinger thread *)
    destruct (nth_error (thr s) i) as [t|] eqn:En; [|exact Hinv].
    pose proof (sum_mine_ge _ _ _ En) as SG.
    assert (Wt : wf_prog (pt_mine t) (pt_ops t) = true) by (rewrite Forall_forall in I3; apply I3; eapply nth_error_In; exact En).
    unfold pt_step. destruct (pt_closing t) eqn:Ec.
    + (* writes the close marker *)
      pose proof (nclosing_ge _ _ _ En Ec) as NG.
      destruct (thr_upd _ _ _ (mkPT (pt_ops t) (pt_mine t) false) En I3 Wt) as (SU & NU & FU). rewrite Ec in NU. cbn in SU, NU.
      assert (Hc0 : closes s = 0) by lia.
      assert (Hm : closemark s = false) by (destruct (closemark s); [specialize (I6 eq_refl); lia|reflexivity]).
      csplit; try assumption.
      * rewrite I1, Hm. unfold INCREMENT_CLOSE. lia.
      * lia.
      * lia.
      * intros _. apply I5. lia.
      * intros _. lia.
      * intros H. destruct (I7 H) as [A B]. lia.
    + destruct (pt_ops t) as [|o r] eqn:Eo.
      { (* finished *) cbn. rewrite (upd_thr_same _ _ _ En). destruct s; exact Hinv. }
      destruct o; cbn in Wt; apply andb_prop in Wt as [Wm Wr]; apply N.ltb_lt in Wm.
      * (* ping *)
        destruct (thr_upd _ _ _ (mkPT r (pt_mine t) false) En I3 Wr) as (SU & NU & FU). rewrite Ec in NU. cbn in SU, NU.
        csplit; try assumption.
        -- rewrite I1. unfold INCREMENT_PING. lia.
        -- lia.
        -- lia.
        -- intros H. apply I5. lia.
        -- intros H. destruct (I7 H) as (A & B & C). assert (handles s = 0) by (apply I5; lia). lia.
      * (* clone *)
        destruct (thr_upd _ _ _ (mkPT r (pt_mine t + 1) false) En I3 Wr) as (SU & NU & FU). rewrite Ec in NU. cbn in SU, NU.
        csplit; try assumption.
        -- lia.
        -- lia.
        -- intros H. assert (handles s = 0) by (apply I5; lia). lia.
      * (* drop *)
        assert (Hz : nclosing (thr s) + closes s = 0).
        { destruct (N.eq_dec (nclosing (thr s) + closes s) 0) as [E|E]; [exact E|]. assert (handles s = 0) by (apply I5; lia). lia. }
        destruct (thr_upd _ _ _ (mkPT r (pt_mine t - 1) (handles s =? 1)) En I3 Wr) as (SU & NU & FU). rewrite Ec in NU. cbn in SU, NU.
        csplit; try assumption.
        -- lia.
        -- destruct (handles s =? 1); lia.
        -- intros H. destruct (N.eqb_spec (handles s) 1) as [E|E]; lia.
Qed.

Lemma sum_mine_init progs : sum_mine (map (fun p => mkPT p 1 false) progs) = N.of_nat (length progs).
Proof. induction progs as [|p r IH]; cbn [map sum_mine length pt_mine]; [reflexivity|]. rewrite IH. lia. Qed.
Lemma nclosing_init progs : nclosing (map (fun p => mkPT p 1 false) progs) = 0.
Proof. induction progs as [|p r IH]; cbn; [reflexivity|exact IH]. Qed.

Lemma cinv_init progs nd cbp : Forall (fun p => wf_prog 1 p = true) progs -> cinv (cp_init progs nd cbp).
Proof.
  intros H. unfold cp_init. csplit.
  - reflexivity.
  - rewrite sum_mine_init. destruct cbp; reflexivity.
  - apply Forall_forall. intros t Ht. apply in_map_iff in Ht as [p [<- Hp]]. rewrite Forall_forall in H. apply H. exact Hp.
  - rewrite nclosing_init. lia.
  - rewrite nclosing_init. lia.
  - discriminate.
  - discriminate.
  - intros Hd. exfalso. apply Hd. reflexivity.
Qed.

Lemma cinv_run progs nd cbp sched : Forall (fun p => wf_prog 1 p = true) progs -> cinv (cp_run progs nd cbp sched).
Proof.
  intros H. unfold cp_run. generalize (cinv_init progs nd cbp H). generalize (cp_init progs nd cbp).
  induction sched as [|k r IH]; intros s Hs; cbn; [exact Hs|]. apply IH. apply cinv_step. exact Hs.
Qed.

(* what a drain sees: a callback is due iff at least one ping was written since the previous drain (so none is lost, none
   is spurious, any number coalesce into one), and removal is due iff the close marker was written *)
Lemma drain_callback_iff s : cinv s -> (2 <=? ctr s) = (1 <=? undrained s).
Proof.
  intros (I1 & _). rewrite I1. destruct (closemark s); destruct (N.leb_spec 1 (undrained s));
    destruct (N.leb_spec 2 (2 * undrained s + 1)); destruct (N.leb_spec 2 (2 * undrained s + 0)); try reflexivity; lia.
Qed.
(* a pending ping makes the registered source ready: the next poll of the loop thread leads to a drain *)
Lemma poll_progress s : cinv s -> registered s = true -> 1 <= undrained s -> (registered s && (0 <? ctr s)) = true.
Proof. intros (I1 & _) Hr Hu. rewrite Hr. cbn [andb]. apply N.ltb_lt. rewrite I1. destruct (closemark s); lia. Qed.
(* the close marker is written at most once, and only when no handle is left *)
Lemma close_once s : cinv s -> closes s <= 1 /\ (closes s = 1 -> handles s = 0).
Proof. intros (_ & _ & _ & I4 & I5 & _). split; [lia|intros H; apply I5; lia]. Qed.
Lemma sum_zero_all l : sum_mine l = 0 -> Forall (fun t => pt_mine t = 0) l.
Proof. induction l as [|t r IH]; cbn; intros H; constructor; [lia|apply IH; lia]. Qed.
Lemma nclosing_zero_all l : nclosing l = 0 -> Forall (fun t => pt_closing t = false) l.
Proof. induction l as [|t r IH]; cbn; intros H; constructor; [destruct (pt_closing t); [lia|reflexivity]|apply IH; destruct (pt_closing t); lia]. Qed.
(* once the source removed itself everything is quiet: no thread can write any more and the counter stays zero *)
Lemma quiet_after_removal s : cinv s -> registered s = false ->
  ctr s = 0 /\ Forall (fun t => pt_ops t = [] /\ pt_closing t = false) (thr s).
Proof.
  intros (I1 & I2 & I3 & I4 & I5 & I6 & I7 & I8) Hr. destruct (I7 Hr) as (A & B & C).
  split; [rewrite I1, B, C; reflexivity|].
  assert (H0 : handles s = 0) by (apply I5; lia).
  assert (Hn : nclosing (thr s) = 0) by lia.
  rewrite I2 in H0. assert (H0' : sum_mine (thr s) = 0) by lia. pose proof (sum_zero_all _ H0') as M. pose proof (nclosing_zero_all _ Hn) as Cl.
  rewrite Forall_forall in *. intros t Ht. split; [|apply Cl; exact Ht].
  specialize (I3 t Ht). specialize (M t Ht). rewrite M in I3. destruct (pt_ops t) as [|[] r]; [reflexivity|..]; cbn in I3; discriminate.
Qed.
(* the source is only ever removed by a drain that saw the close marker: never while a handle is alive *)
Lemma removed_only_after_close s : cinv s -> registered s = false -> handles s = 0 /\ closes s = 1.
Proof. intros (I1 & I2 & I3 & I4 & I5 & I6 & I7 & I8) Hr. destruct (I7 Hr) as (A & _). split; [apply I5; lia|exact A]. Qed.
