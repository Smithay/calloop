From CV Require Import Base Env Timeout.
Open Scope Z_scope.

Lemma eff_none timeout syn next now : eff_timeout timeout syn next now = None <-> (syn = false /\ timeout = None /\ next = None).
Proof. unfold eff_timeout. destruct syn, timeout, next; cbn; split; intros H; try discriminate; try tauto; destruct H as (A & B & C); discriminate. Qed.

Lemma eff_spec timeout syn next now e : eff_timeout timeout syn next now = Some e ->
  let t := if syn then Some 0 else timeout in
  (forall x, t = Some x -> e <= x) /\ (forall d, next = Some d -> e <= sat_since d now) /\
  (t = Some e \/ exists d, next = Some d /\ e = sat_since d now).
Proof.
  unfold eff_timeout. destruct (if syn then Some 0 else timeout) as [a|], next as [d|]; cbn; intros [= <-].
  - split; [intros x [= <-]; lia|]. split; [intros d' [= <-]; lia|].
    destruct (Z.min_spec a (sat_since d now)) as [[? ->]|[? ->]]; [left; reflexivity|right; eexists; split; reflexivity].
  - split; [intros x [= <-]; lia|]. split; [intros d' H; discriminate|left; reflexivity].
  - split; [intros x H; discriminate|]. split; [intros d' [= <-]; lia|right; eexists; split; reflexivity].
Qed.
Lemma sat_since_nonneg d now : 0 <= sat_since d now /\ (now <= d -> sat_since d now = d - now) /\ (d <= now -> sat_since d now = 0).
Proof. unfold sat_since. lia. Qed.

(* a zero timeout never blocks *)
Lemma eff_zero syn next now : eff_timeout (Some 0) syn next now = Some 0.
Proof. unfold eff_timeout, sat_since. destruct syn, next; cbn; try reflexivity; f_equal; lia. Qed.

(* if the wait ends at or after the earliest deadline, that deadline's timer is in the batch *)
Lemma limit_fires l d now' : wh_next_deadline (mkWheel l 0%N) = Some d -> d <= now' ->
  exists e, In e (fst (wh_expire (length l) l now')) /\ w_dl e = d.
Proof.
  unfold wh_next_deadline. cbn. destruct (wh_min l) as [m|] eqn:Em; [|discriminate]. intros [= <-] Hle.
  destruct l as [|x t]; [discriminate|]. cbn [length wh_expire]. rewrite Em.
  destruct (Z.leb_spec (w_dl m) now'); [|lia].
  destruct (wh_expire _ _ _) as [ex rest]. exists m. split; [left; reflexivity|reflexivity].
Qed.

(* no spinning: the wait handed to the poller is zero only for a reason - the caller asked for zero, a synthetic event (idle
   callback queued, readiness the poller missed) is pending, or a timer is already due *)
Lemma eff_zero_only_for_cause timeout syn next now : (forall x, timeout = Some x -> 0 <= x) ->
  eff_timeout timeout syn next now = Some 0 ->
  syn = true \/ timeout = Some 0 \/ exists d, next = Some d /\ d <= now.
Proof.
  intros Hx H. destruct (eff_spec _ _ _ _ _ H) as (_ & _ & [E|(d & E1 & E2)]).
  - destruct syn; [left; reflexivity|right; left; exact E].
  - right; right. exists d. split; [exact E1|]. unfold sat_since in E2. lia.
Qed.
(* no oversleeping: a positive wait never ends later than the caller's timeout nor later than the earliest deadline *)
Lemma eff_never_late timeout next now e : eff_timeout timeout false next now = Some e ->
  (forall x, timeout = Some x -> e <= x) /\ (forall d, next = Some d -> now + e <= Z.max now d).
Proof.
  intros H. destruct (eff_spec _ _ _ _ _ H) as (A & B & _). split; [exact A|].
  intros d Hd. specialize (B d Hd). unfold sat_since in B. lia.
Qed.
(* and it is not shorter than needed either: it ends exactly at the caller's timeout or exactly at the earliest deadline *)
Lemma eff_never_early timeout next now e : eff_timeout timeout false next now = Some e ->
  timeout = Some e \/ exists d, next = Some d /\ now + e = Z.max now d.
Proof.
  intros H. destruct (eff_spec _ _ _ _ _ H) as (_ & _ & [E|(d & E1 & E2)]); [left; exact E|].
  right. exists d. split; [exact E1|]. unfold sat_since in E2. lia.
Qed.
