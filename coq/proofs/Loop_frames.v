(* Frame lemmas for the sequential loop model: which operations leave which fields alone. *)
From CV Require Import Base Token PostAction Env Loop.
Open Scope N_scope.

Ltac dmatch :=
  repeat match goal with
         | |- context [match ?x with _ => _ end] => destruct x eqn:?
         | |- context [if ?x then _ else _] => destruct x eqn:?
         end.
Ltac dmatch_in H :=
  repeat match type of H with
         | context [match ?x with _ => _ end] => destruct x eqn:?
         | context [if ?x then _ else _] => destruct x eqn:?
         end.

Lemma running_panic s k : running (panic s k) = running s. Proof. reflexivity. Qed.
Lemma pending_panic s k : pending (panic s k) = pending s. Proof. reflexivity. Qed.
Lemma halted_panic s k : halted (panic s k) = true. Proof. reflexivity. Qed.

Lemma running_set_obj_src s o x : running (set_obj_src s o x) = running s.
Proof. unfold set_obj_src; dmatch; reflexivity. Qed.
Lemma pending_set_obj_src s o x : pending (set_obj_src s o x) = pending s.
Proof. unfold set_obj_src; dmatch; reflexivity. Qed.
Lemma halted_set_obj_src s o x : halted (set_obj_src s o x) = halted s.
Proof. unfold set_obj_src; dmatch; reflexivity. Qed.
Lemma ridle_set_obj_src s o x : ridle (set_obj_src s o x) = ridle s.
Proof. unfold set_obj_src; dmatch; reflexivity. Qed.
Lemma slots_set_obj_src s o x : slots (set_obj_src s o x) = slots s.
Proof. unfold set_obj_src. destruct (objs s o); reflexivity. Qed.
Lemma toks_set_obj_src s o x : toks (set_obj_src s o x) = toks s.
Proof. unfold set_obj_src. destruct (objs s o); reflexivity. Qed.
Lemma running_regop s o x k b : running (regop s o x k b) = running s. Proof. unfold regop; destruct x; reflexivity. Qed.
Lemma pending_regop s o x k b : pending (regop s o x k b) = pending s. Proof. unfold regop; destruct x; reflexivity. Qed.
Lemma halted_regop s o x k b : halted (regop s o x k b) = halted s. Proof. unfold regop; destruct x; reflexivity. Qed.
Lemma ridle_regop s o x k b : ridle (regop s o x k b) = ridle s. Proof. unfold regop; destruct x; reflexivity. Qed.
Lemma lifecycle_regop s o x k b : lifecycle (regop s o x k b) = lifecycle s. Proof. unfold regop; destruct x; reflexivity. Qed.
Lemma slots_regop s o x k b : slots (regop s o x k b) = slots s. Proof. unfold regop; destruct x; reflexivity. Qed.
Lemma objs_regop s o x k b : objs (regop s o x k b) = objs s. Proof. unfold regop; destruct x; reflexivity. Qed.
Lemma en_regop s o x k b : en (regop s o x k b) = en s. Proof. unfold regop; destruct x; reflexivity. Qed.
Lemma toks_regop s o x k b : toks (regop s o x k b) = toks s.
Proof. unfold regop. destruct x; reflexivity. Qed.

Lemma running_disp_register s o t : running (snd (disp_register s o t)) = running s.
Proof. unfold disp_register; dmatch; cbn; rewrite ?running_regop, ?running_set_obj_src; reflexivity. Qed.
Lemma running_disp_reregister s o t : running (snd (disp_reregister s o t)) = running s.
Proof. unfold disp_reregister; dmatch; cbn; rewrite ?running_regop, ?running_set_obj_src; reflexivity. Qed.
Lemma running_disp_unregister s o t : running (snd (disp_unregister s o t)) = running s.
Proof. unfold disp_unregister; dmatch; cbn; rewrite ?running_regop, ?running_set_obj_src; reflexivity. Qed.
Lemma pending_disp_register s o t : pending (snd (disp_register s o t)) = pending s.
Proof. unfold disp_register; dmatch; cbn; rewrite ?pending_regop, ?pending_set_obj_src; reflexivity. Qed.
Lemma pending_disp_reregister s o t : pending (snd (disp_reregister s o t)) = pending s.
Proof. unfold disp_reregister; dmatch; cbn; rewrite ?pending_regop, ?pending_set_obj_src; reflexivity. Qed.
Lemma pending_disp_unregister s o t : pending (snd (disp_unregister s o t)) = pending s.
Proof. unfold disp_unregister; dmatch; cbn; rewrite ?pending_regop, ?pending_set_obj_src; reflexivity. Qed.
Lemma halted_disp_unregister s o t : halted (snd (disp_unregister s o t)) = halted s.
Proof. unfold disp_unregister; dmatch; cbn; rewrite ?halted_regop, ?halted_set_obj_src; reflexivity. Qed.
Lemma slots_disp_register s o t : slots (snd (disp_register s o t)) = slots s.
Proof.
  unfold disp_register. destruct (objs s o) as [ob|]; [|reflexivity]. destruct (is_running s o); [reflexivity|].
  destruct (src_register _ _ _) as [[r x'] e1]. destruct r; cbn [snd]; try destruct (src_lc x'); cbn [slots set_lifecycle panic set_halted emit set_log];
    rewrite ?slots_regop, ?slots_set_obj_src; reflexivity.
Qed.
Lemma slots_disp_reregister s o t : slots (snd (disp_reregister s o t)) = slots s.
Proof.
  unfold disp_reregister. destruct (objs s o) as [ob|]; [|reflexivity]. destruct (is_running s o); [reflexivity|].
  destruct (src_reregister _ _ _) as [[r x'] e1]. destruct r; cbn [snd]; try destruct (src_lc x'); cbn [slots set_lifecycle panic set_halted emit set_log];
    rewrite ?slots_regop, ?slots_set_obj_src; reflexivity.
Qed.
Lemma slots_disp_unregister s o t : slots (snd (disp_unregister s o t)) = slots s.
Proof.
  unfold disp_unregister. destruct (objs s o) as [ob|]; [|reflexivity]. destruct (is_running s o); [reflexivity|].
  destruct (src_unregister _ _) as [[ok x'] e1]. cbn [snd]. destruct (src_lc x'); cbn [slots set_lifecycle];
    rewrite ?slots_regop, ?slots_set_obj_src; reflexivity.
Qed.
Lemma toks_disp_register s o t : toks (snd (disp_register s o t)) = toks s.
Proof.
  unfold disp_register. destruct (objs s o) as [ob|]; [|reflexivity]. destruct (is_running s o); [reflexivity|].
  destruct (src_register _ _ _) as [[r x'] e1]. destruct r; cbn [snd]; try destruct (src_lc x'); cbn [toks set_lifecycle panic set_halted emit set_log];
    rewrite ?toks_regop, ?toks_set_obj_src; reflexivity.
Qed.
Lemma toks_disp_reregister s o t : toks (snd (disp_reregister s o t)) = toks s.
Proof.
  unfold disp_reregister. destruct (objs s o) as [ob|]; [|reflexivity]. destruct (is_running s o); [reflexivity|].
  destruct (src_reregister _ _ _) as [[r x'] e1]. destruct r; cbn [snd]; try destruct (src_lc x'); cbn [toks set_lifecycle panic set_halted emit set_log];
    rewrite ?toks_regop, ?toks_set_obj_src; reflexivity.
Qed.
Lemma toks_disp_unregister s o t : toks (snd (disp_unregister s o t)) = toks s.
Proof.
  unfold disp_unregister. destruct (objs s o) as [ob|]; [|reflexivity]. destruct (is_running s o); [reflexivity|].
  destruct (src_unregister _ _) as [[ok x'] e1]. cbn [snd]. destruct (src_lc x'); cbn [toks set_lifecycle]; rewrite ?toks_regop, ?toks_set_obj_src; reflexivity.
Qed.
Lemma is_running_none s o : running s = None -> is_running s o = false.
Proof. unfold is_running; intros ->; reflexivity. Qed.
Lemma is_running_some s o t : running s = Some (o, t) -> is_running s o = true.
Proof. unfold is_running; intros ->; apply N.eqb_refl. Qed.
(* reregister and unregister are deferred only for the object being processed *)
Lemma disp_reregister_done' s o t : is_running s o = false -> snd (fst (disp_reregister s o t)) = true.
Proof. intros H. unfold disp_reregister. rewrite H. dmatch; reflexivity. Qed.
Lemma disp_unregister_done' s o t : is_running s o = false -> snd (fst (disp_unregister s o t)) = true.
Proof. intros H. unfold disp_unregister. rewrite H. dmatch; reflexivity. Qed.
Lemma disp_reregister_done s o t : running s = None -> snd (fst (disp_reregister s o t)) = true.
Proof. intros H. apply disp_reregister_done', is_running_none, H. Qed.
Lemma disp_unregister_done s o t : running s = None -> snd (fst (disp_unregister s o t)) = true.
Proof. intros H. apply disp_unregister_done', is_running_none, H. Qed.

Lemma running_maybe_drop s o : running (maybe_drop s o) = running s.
Proof. unfold maybe_drop, drop_obj; dmatch; reflexivity. Qed.
Lemma pending_maybe_drop s o : pending (maybe_drop s o) = pending s.
Proof. unfold maybe_drop, drop_obj; dmatch; reflexivity. Qed.
Lemma halted_maybe_drop s o : halted (maybe_drop s o) = halted s.
Proof. unfold maybe_drop, drop_obj; dmatch; reflexivity. Qed.
Lemma ridle_maybe_drop s o : ridle (maybe_drop s o) = ridle s.
Proof. unfold maybe_drop, drop_obj; dmatch; reflexivity. Qed.
Lemma slots_maybe_drop s o : slots (maybe_drop s o) = slots s.
Proof. unfold maybe_drop, drop_obj. destruct (objs s o) as [ob|]; [|reflexivity]. destruct (o_ext ob || in_slots (slots s) o); [reflexivity|]. destruct (is_running s o); reflexivity. Qed.
Lemma toks_maybe_drop s o : toks (maybe_drop s o) = toks s.
Proof. unfold maybe_drop, drop_obj; dmatch; reflexivity. Qed.
Lemma running_drop_zombies l : forall s, running (drop_zombies s l) = running s.
Proof. induction l as [|o l IH]; intros s; cbn; [reflexivity|]. rewrite IH. apply running_maybe_drop. Qed.
Lemma pending_drop_zombies l : forall s, pending (drop_zombies s l) = pending s.
Proof. induction l as [|o l IH]; intros s; cbn; [reflexivity|]. rewrite IH. apply pending_maybe_drop. Qed.
Lemma halted_drop_zombies l : forall s, halted (drop_zombies s l) = halted s.
Proof. induction l as [|o l IH]; intros s; cbn; [reflexivity|]. rewrite IH. apply halted_maybe_drop. Qed.
Lemma slots_drop_zombies l : forall s, slots (drop_zombies s l) = slots s.
Proof. induction l as [|o r IH]; intros s; cbn; [reflexivity|]. rewrite IH. apply slots_maybe_drop. Qed.
Lemma toks_drop_zombies l : forall s, toks (drop_zombies s l) = toks s.
Proof. induction l as [|o l IH]; intros s; cbn; [reflexivity|]. rewrite IH. apply toks_maybe_drop. Qed.
Lemma running_end_processing s o : running (end_processing s o) = None.
Proof. unfold end_processing. rewrite running_drop_zombies, running_maybe_drop. reflexivity. Qed.
Lemma pending_end_processing s o : pending (end_processing s o) = pending s.
Proof. unfold end_processing. rewrite pending_drop_zombies, pending_maybe_drop. reflexivity. Qed.
Lemma halted_end_processing s o : halted (end_processing s o) = halted s.
Proof. unfold end_processing. rewrite halted_drop_zombies, halted_maybe_drop. reflexivity. Qed.
Lemma slots_end_processing s o : slots (end_processing s o) = slots s.
Proof. unfold end_processing. rewrite slots_drop_zombies, slots_maybe_drop. reflexivity. Qed.
Lemma toks_end_processing s o : toks (end_processing s o) = toks s.
Proof. unfold end_processing. rewrite toks_drop_zombies, toks_maybe_drop. reflexivity. Qed.

(* ---- one iteration of the event loop by its phases: process_events of the object, the post action (the returned one, or the
   deferred one when Continue was returned), the deferred unregistration of a vacated slot, the end of the processing ---- *)
Definition post_phase (s2 : st) (o : N) (reg : tok) (ret : option postaction) : bool * st :=
  let s4 := set_pending (set_running s2 None) Continue in
  match ret with
  | None => (false, s4)
  | Some r => apply_post s4 o reg (match r with Continue => pending s2 | _ => r end)
  end.
Lemma process_event_phases scr s ev sl o :
  slot_get (slots s) (forget_sub_id (unpack (ev_key ev))) = Some sl -> s_obj sl = Some o ->
  let reg := forget_sub_id (unpack (ev_key ev)) in
  process_event scr s ev =
  let (s2, ret) := obj_process scr (set_running s (Some (o, reg))) o ev in
  if halted s2 then (s2, false) else
  let (ok, s5) := post_phase s2 o reg ret in
  if halted s5 then (s5, false) else
  (end_processing (if slot_vacant_for s5 reg then snd (disp_unregister s5 o reg) else s5) o, ok).
Proof.
  intros E1 E2. cbv zeta. unfold process_event, post_phase. rewrite E1, E2.
  destruct (obj_process scr _ o ev) as [s2 ret]. destruct (halted s2); [reflexivity|].
  destruct (match ret with None => _ | Some r => _ end) as [ok s5]. destruct (halted s5); [reflexivity|].
  destruct (slot_vacant_for s5 _); [destruct (disp_unregister s5 o _) as [[rs d] sx]|]; reflexivity.
Qed.

(* ---- the post-action switch; a halted loop executes nothing ---- *)
Lemma pending_apply_post s o reg r : pending (snd (apply_post s o reg r)) = pending s.
Proof.
  unfold apply_post. destruct r.
  - reflexivity.
  - pose proof (pending_disp_reregister s o reg) as F. destruct (disp_reregister s o reg) as [[rs d] sx]. exact F.
  - pose proof (pending_disp_unregister s o reg) as F. destruct (disp_unregister s o reg) as [[rs d] sx]. exact F.
  - cbn [snd]. destruct (slot_get (slots s) reg); reflexivity.
Qed.
Lemma halted_exec_action_stuck s a : halted s = true -> exec_action s a = s.
Proof. intros H; unfold exec_action; rewrite H; reflexivity. Qed.
Lemma exec_actions_stuck l : forall s, halted s = true -> exec_actions s l = s.
Proof.
  induction l as [|a l IH]; intros s H; [reflexivity|].
  unfold exec_actions in *; cbn. rewrite (halted_exec_action_stuck s a H). apply IH; exact H.
Qed.

(* ---- the lifecycle loops write bsn, synth, halted and the trace, the dumps the trace; nothing else ----
   Stated as equations "the result is s with these fields replaced", so that what they leave alone - every other field - is read
   off by computation. hooks_of s x: x is s (the state before) with bsn, synth, halted and log replaced. *)
Definition with_hooks (s : st) (b : fmap nat) (y : list pevent) (h : bool) (lg : list tline) : st :=
  set_log (set_halted (set_synth (set_bsn s b) y) h) lg.
Lemma with_hooks_id s : with_hooks s (bsn s) (synth s) (halted s) (log s) = s.
Proof. destruct s; reflexivity. Qed.
Definition hooks_of (s x : st) : Prop := exists b y h lg, x = with_hooks s b y h lg.
Lemma hooks_refl s : hooks_of s s.
Proof. do 4 eexists. symmetry. apply with_hooks_id. Qed.
Lemma hooks_trans s x z : hooks_of s x -> hooks_of x z -> hooks_of s z.
Proof. intros (b & y & h & lg & ->) (b' & y' & h' & lg' & ->). exists b', y', h', lg'. reflexivity. Qed.
Lemma hooks_emit s l : hooks_of s (emit s l).
Proof. exists (bsn s), (synth s), (halted s), (l :: log s). destruct s; reflexivity. Qed.
Lemma hooks_set_bsn s v : hooks_of s (set_bsn s v).
Proof. exists v, (synth s), (halted s), (log s). destruct s; reflexivity. Qed.
Lemma hooks_set_synth s v : hooks_of s (set_synth s v).
Proof. exists (bsn s), v, (halted s), (log s). destruct s; reflexivity. Qed.
Lemma hooks_panic s k : hooks_of s (panic s k).
Proof. exists (bsn s), (synth s), true, (L T_PANIC [k] :: log s). destruct s; reflexivity. Qed.
Lemma before_sleep_loop_writes bscr l : forall s, hooks_of s (fst (before_sleep_loop bscr s l)).
Proof.
  induction l as [|t l IH]; intros s; cbn [before_sleep_loop]; [apply hooks_refl|].
  destruct (lc_lookup s t) as [o|]; [|apply hooks_panic].
  assert (H1 : hooks_of s (emit (set_bsn s (fupd (bsn s) o (S (bsn s o)))) (L T_BS [zN o; zN (nth (bsn s o) (bscr o) 0)])))
    by (eapply hooks_trans; [apply hooks_set_bsn|apply hooks_emit]).
  destruct (nth _ _ _) as [|[p|p|]]; try exact H1; [eapply hooks_trans; [exact H1|apply IH]|].
  destruct (match objs _ o with Some _ => _ | None => _ end) as [tk|]; (eapply hooks_trans; [|apply IH]); [|exact H1].
  eapply hooks_trans; [exact H1|apply hooks_set_synth].
Qed.
Lemma before_handle_loop_writes l polled : forall s, hooks_of s (fst (before_handle_loop s l polled)).
Proof.
  induction l as [|t l IH]; intros s; cbn [before_handle_loop]; [apply hooks_refl|].
  destruct (lc_lookup s t) as [o|]; [|apply hooks_panic]. eapply hooks_trans; [apply hooks_emit|apply IH].
Qed.
Lemma emits_log l : forall s, emits s l = set_log s (rev l ++ log s).
Proof.
  unfold emits. induction l as [|x l IH]; intros s; cbn [fold_left rev app]; [destruct s; reflexivity|].
  rewrite IH. cbn. rewrite <- app_assoc. reflexivity.
Qed.
