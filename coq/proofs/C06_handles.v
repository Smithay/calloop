(* C06 (used by C07): a handle's token only ever resolves to the handle's own object - over whole histories. *)
From CV Require Import Base Token Env Loop.
From CVP Require Import Loop_frames Loop_walk C06_proofs.
Open Scope N_scope.

Definition hobj_at (l : list slot) (h : N) (t : tok) : Prop :=
  issued l t /\ forall sl, slot_get l t = Some sl -> s_obj sl = Some h \/ s_obj sl = None.
Definition HOBJ (s : st) : Prop := forall h t, toks s h = Some t -> hobj_at (slots s) h t.

Lemma hobj_at_sstep l l' h t : sstep l l' -> slots_wf l -> gens_small l' -> hobj_at l h t -> hobj_at l' h t.
Proof. intros S Hw Hg [Hi Ho]. exact (resolves_sstep (fun x => x = Some h \/ x = None) l l' t (or_intror eq_refl) S Hw Hg Hi Ho). Qed.

Definition TKS (s s' : st) : Prop :=
  sstep (slots s) (slots s') /\
  (slots_wf (slots s) -> gens_small (slots s') -> forall h, toks s' h = toks s h \/ exists t, toks s' h = Some t /\ hobj_at (slots s') h t).

Lemma TKS_frame s s' : sstep (slots s) (slots s') -> toks s' = toks s -> TKS s s'.
Proof. intros S E. split; [exact S|]. intros _ _ h. left. rewrite E. reflexivity. Qed.
Lemma TKS_refl s : TKS s s.
Proof. apply TKS_frame; [apply sstep_refl|reflexivity]. Qed.
Lemma TKS_trans a b c : TKS a b -> TKS b c -> TKS a c.
Proof.
  intros [S1 T1] [S2 T2]. split; [eapply sstep_trans; eassumption|]. intros Hw Hg h.
  assert (Hwb : slots_wf (slots b)) by (apply (proj1 S1); exact Hw).
  assert (Hgb : gens_small (slots b)) by (eapply gens_small_mono; [apply (proj2 S2)|exact Hg]).
  destruct (T2 Hwb Hg h) as [E2|X]; [|right; exact X].
  destruct (T1 Hw Hgb h) as [E1|[t [Et Ht]]]; [left; congruence|].
  right. exists t. split; [congruence|]. eapply hobj_at_sstep; eassumption.
Qed.
Lemma HOBJ_TKS s s' : TKS s s' -> slots_wf (slots s) -> gens_small (slots s') -> HOBJ s -> HOBJ s'.
Proof.
  intros [S T] Hw Hg H h t Ht. destruct (T Hw Hg h) as [E|[t' [Et Hh]]].
  - rewrite E in Ht. eapply hobj_at_sstep; try eassumption. apply H. exact Ht.
  - rewrite Et in Ht. injection Ht as <-. exact Hh.
Qed.

(* the point of it: whatever a handle's token resolves to is the handle's own object *)
Lemma HOBJ_lookup s h t et o : HOBJ s -> lookup s h = Some (t, et, o) -> o = h.
Proof.
  intros H L. unfold lookup in L. destruct (toks s h) as [t0|] eqn:Et; [|discriminate].
  destruct (slot_get (slots s) t0) as [sl|] eqn:Es; [|discriminate]. destruct (s_obj sl) as [o0|] eqn:Eo; [|discriminate].
  injection L as <- <- <-. destruct (H h t0 Et) as [_ X]. destruct (X sl Es) as [Y|Y]; congruence.
Qed.

(* ---------- only the last write of a successful insert gives a handle a token: that of the slot holding it ---------- *)
Lemma astep_TKS a s s' : astep a s s' -> TKS s s'.
Proof.
  intros S. pose proof (astep_sstep a s s' S) as SS.
  destruct S as [s e' E|s args|s k|s h x _ Eh|s i sl e h _ Ev He|s i t h g _ Hn|s i t h g Hn|s o t _|s o t _|s o t|s p _ _|s t _|s o|
                 s h ob lc own subs tmr j it m _ _ _|s h ob dl _ _|s h ob _ _|s h ob _|s i _|s i];
    try (apply TKS_frame; [exact SS|reflexivity]).
  - split; [exact SS|]. intros Hw _ h'. cbn [toks set_toks slots]. unfold fupd. destruct (N.eqb_spec h' h) as [->|]; [right|left; reflexivity].
    exists t. split; [reflexivity|]. destruct (Hw _ _ Hn) as (_ & Hid & _ & Hver). cbn [s_tok s_gen] in Hid, Hver.
    assert (Hi : N.to_nat (t_id t) = i) by (rewrite Hid; apply Nat2N.id). split.
    + exists (mkSlot t (Some h) g). split; [rewrite Hi; exact Hn|]. cbn [s_gen]. rewrite Hver. apply N.mod_le. unfold U16. lia.
    + intros sl2 Hs. unfold slot_get in Hs. rewrite Hi, Hn in Hs. cbn [s_tok] in Hs.
      destruct (same_source_as t t); [|discriminate]. injection Hs as <-. left. reflexivity.
  - apply TKS_frame; [exact SS|apply toks_disp_register].
  - apply TKS_frame; [exact SS|apply toks_disp_reregister].
  - apply TKS_frame; [exact SS|apply toks_disp_unregister].
  - apply TKS_frame; [exact SS|apply toks_maybe_drop].
  - apply TKS_frame; [exact SS|apply toks_set_obj_src].
  - apply TKS_frame; [exact SS|apply toks_set_obj_src].
Qed.
Lemma star_TKS (step : st -> st -> Prop) : (forall a b, step a b -> TKS a b) -> forall a b, star step a b -> TKS a b.
Proof. apply star_incl; [apply TKS_refl|apply TKS_trans]. Qed.
Lemma TKS_exec_action s a : TKS s (exec_action s a).
Proof. apply (star_TKS _ (astep_TKS a)), exec_action_astar. Qed.


Lemma cstep_TKS ok h s s' : cstep ok h s s' -> TKS s s'.
Proof.
  intros C. pose proof (cstep_sstep ok h s s' C) as S. destruct C; try (apply TKS_frame; [exact S|reflexivity]).
  - apply TKS_exec_action.
  - apply TKS_frame; [exact S|]. rewrite toks_set_obj_src. reflexivity.
  - apply TKS_frame; [exact S|apply toks_set_obj_src].
Qed.
Lemma lstep_TKS ok o s s' : lstep ok o s s' -> TKS s s'.
Proof.
  intros C. pose proof (lstep_sstep ok o s s' C) as S. destruct C; try (apply TKS_frame; [exact S|reflexivity]).
  - eapply cstep_TKS; eassumption.
  - apply TKS_frame; [exact S|apply toks_disp_reregister].
  - apply TKS_frame; [exact S|apply toks_disp_unregister].
  - apply TKS_frame; [exact S|apply toks_maybe_drop].
Qed.
Lemma dstep_TKS ok scr : scripts_ok ok scr -> forall s s', dstep ok scr s s' -> TKS s s'.
Proof.
  intros Hscr s s' C. pose proof (dstep_sstep ok scr s s' C) as S.
  destruct C as [x ev Hx| | | | | | | |]; try (apply TKS_frame; [exact S|reflexivity]).
  - destruct (process_event_star ok scr Hscr x ev) as [o S']. eapply star_TKS; [apply lstep_TKS|exact S'].
  - apply TKS_exec_action.
Qed.

Lemma TKS_exec_cmds scr bscr cmds : forall s, TKS s (fold_left (exec_cmd scr bscr) cmds s).
Proof.
  intros s. eapply star_TKS; [apply (dstep_TKS (fun _ => True) scr), scripts_ok_True|].
  apply exec_cmds_star; [apply scripts_ok_True|apply cmds_ok_True].
Qed.

(* in every state a scenario reaches, a handle's token is a token of its slot's current or a past generation, and wherever it
   still resolves it finds the handle's own object (or an emptied slot) - never the source that later re-used the slot *)
Theorem HOBJ_run scr bscr cmds : gens_small (slots (run scr bscr cmds)) -> HOBJ (run scr bscr cmds).
Proof.
  intros G. unfold run in *. eapply HOBJ_TKS; [apply TKS_exec_cmds| |exact G|].
  - intros i sl H. destruct i; discriminate.
  - intros h t H. discriminate.
Qed.
Theorem handle_resolves_only_to_own_object scr bscr cmds h t et o :
  gens_small (slots (run scr bscr cmds)) -> lookup (run scr bscr cmds) h = Some (t, et, o) -> o = h.
Proof. intros G L. eapply HOBJ_lookup; [apply HOBJ_run; exact G|exact L]. Qed.
