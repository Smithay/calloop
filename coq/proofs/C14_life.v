(* C14 / C08 / C15: every lifecycle entry resolves to an occupied slot holding a lifecycle source, except - while a callback runs -
   the entry of the source being processed. Here: the components LI (entries resolve) and TS (handle tokens are slot tokens) for
   every action in any context, and the invariant INV of the top level (any sequence of operations from the empty loop), after
   which the lifecycle loops of a dispatch cannot reach unreachable!(). Callbacks, events and dispatches: C14_life2. *)
From CV Require Import Base Token Env Loop.
From CVP Require Import Loop_frames Loop_walk Seq_lemmas C06_proofs.
Open Scope N_scope.

Definition good (s : st) (t : tok) : Prop :=
  exists sl o ob, slot_get (slots s) t = Some sl /\ s_obj sl = Some o /\ objs s o = Some ob /\ src_lc (o_src ob) = true.
(* the source being processed may have vacated its slot: its entry goes when its processing ends *)
Definition excused (s : st) (ex : option (N * tok)) (t : tok) : Prop :=
  exists o ob, ex = Some (o, t) /\ objs s o = Some ob /\ src_lc (o_src ob) = true.
(* ex: the pair (object being processed, token its event resolved through) whose entry may dangle; None when nothing runs *)
Definition LI (s : st) (ex : option (N * tok)) : Prop :=
  (forall t, In t (lifecycle s) -> t_sub t = 0 /\ (good s t \/ excused s ex t)) /\
  (* objects held by a slot exist *)
  (forall i sl o, nth_error (slots s) i = Some sl -> s_obj sl = Some o -> objs s o <> None) /\
  (* the excused object exists *)
  (forall o t, ex = Some (o, t) -> objs s o <> None).

Definition TS (s : st) : Prop := forall h t, toks s h = Some t -> t_sub t = 0.
(* what holds between two top-level operations: nothing runs, so no entry is excused *)
Definition INV (s : st) : Prop := LI s None /\ slots_wf (slots s) /\ TS s /\ running s = None.

(* ---------- the lc flag of a source never changes ---------- *)
Lemma src_lc_register e x f : src_lc (snd (fst (src_register e x f))) = src_lc x.
Proof.
  destruct x as [lc own subs tmr|g|tm|c g]; cbn [src_register].
  - destruct (ftoken f) as [[t f']|]; [|reflexivity]. destruct (subs_register e subs f') as [[[r subs'] f''] e'].
    destruct r; try reflexivity. destruct tmr as [tm|]; [|reflexivity]. destruct (timer_register e' tm f'') as [[r2 tm'] e'']. reflexivity.
  - destruct (ftoken f) as [[t f']|]; [|reflexivity]. unfold one_gen. destruct (gen_register e g t) as [[ok g'] e']. reflexivity.
  - destruct (timer_register e tm f) as [[r t'] e']. reflexivity.
  - destruct (ftoken f) as [[t f']|]; [|reflexivity]. unfold one_gen. destruct (gen_register e g t) as [[ok g'] e']. reflexivity.
Qed.
Lemma src_lc_reregister e x f : src_lc (snd (fst (src_reregister e x f))) = src_lc x.
Proof.
  destruct x as [lc own subs tmr|g|tm|c g]; cbn [src_reregister].
  - destruct (ftoken f) as [[t f']|]; [|reflexivity]. destruct (subs_reregister e subs f') as [[[r subs'] f''] e'].
    destruct r; try reflexivity. destruct tmr as [tm|]; [|reflexivity]. destruct (timer_reregister e' tm f'') as [[r2 tm'] e'']. reflexivity.
  - destruct (ftoken f) as [[t f']|]; [|reflexivity]. unfold one_gen. destruct (gen_reregister e g t) as [[ok g'] e']. reflexivity.
  - destruct (tm_en tm); [|reflexivity]. destruct (timer_unregister e tm) as [t1 e1]. destruct (timer_register e1 t1 f) as [[r t'] e']. reflexivity.
  - destruct (ftoken f) as [[t f']|]; [|reflexivity]. unfold one_gen. destruct (gen_reregister e g t) as [[ok g'] e']. reflexivity.
Qed.
Lemma src_lc_unregister e x : src_lc (snd (fst (src_unregister e x))) = src_lc x.
Proof.
  destruct x as [lc own subs tmr|g|tm|c g]; cbn [src_unregister].
  - destruct (subs_unregister e subs) as [[ok subs'] e']. destruct ok; [|reflexivity]. destruct tmr as [tm|]; [|reflexivity].
    destruct (timer_unregister e' tm) as [tm' e'']. reflexivity.
  - destruct (gen_unregister e g) as [[ok g'] e']. reflexivity.
  - destruct (timer_unregister e tm) as [t' e']. reflexivity.
  - destruct (gen_unregister e g) as [[ok g'] e']. reflexivity.
Qed.

Definition objs_keep (s s' : st) : Prop :=
  forall o ob, objs s o = Some ob -> exists ob', objs s' o = Some ob' /\ src_lc (o_src ob') = src_lc (o_src ob).
Lemma objs_keep_refl s : objs_keep s s.
Proof. intros o ob H. exists ob. split; [exact H|reflexivity]. Qed.
Lemma objs_keep_eq s s' : objs s' = objs s -> objs_keep s s'.
Proof. intros E o ob H. exists ob. rewrite E. split; [exact H|reflexivity]. Qed.
Lemma objs_keep_trans a b c : objs_keep a b -> objs_keep b c -> objs_keep a c.
Proof. intros H1 H2 o ob H. destruct (H1 o ob H) as [ob1 [A B]]. destruct (H2 o ob1 A) as [ob2 [C D]]. exists ob2. split; [exact C|congruence]. Qed.

Lemma good_frame s s' t : slots s' = slots s -> objs_keep s s' -> good s t -> good s' t.
Proof.
  intros Hs Ho (sl & o & ob & A & B & C & D). destruct (Ho o ob C) as [ob' [C' D']].
  exists sl, o, ob'. rewrite Hs. repeat split; try assumption. congruence.
Qed.
Lemma excused_frame s s' ex t : objs_keep s s' -> excused s ex t -> excused s' ex t.
Proof. intros Ho (o & ob & A & B & C). destruct (Ho o ob B) as [ob' [B' C']]. exists o, ob'. repeat split; try assumption. congruence. Qed.


Lemma LI_sub s s' ex : slots s' = slots s -> incl (lifecycle s') (lifecycle s) -> objs_keep s s' -> LI s ex -> LI s' ex.
Proof.
  intros Hs Hl Ho (A & B & C). split; [|split].
  - intros t Ht. apply Hl in Ht. destruct (A t Ht) as [S [G|E]]; (split; [exact S|]); [left; eapply good_frame; eassumption|right; eapply excused_frame; eassumption].
  - intros i sl o Hn Hob. rewrite Hs in Hn. specialize (B i sl o Hn Hob). destruct (objs s o) as [ob|] eqn:E; [|congruence].
    destruct (Ho o ob E) as [ob' [E' _]]. congruence.
  - intros o t He. specialize (C o t He). destruct (objs s o) as [ob|] eqn:E; [|congruence]. destruct (Ho o ob E) as [ob' [E' _]]. congruence.
Qed.
Lemma LI_frame s s' ex : slots s' = slots s -> lifecycle s' = lifecycle s -> objs_keep s s' -> LI s ex -> LI s' ex.
Proof. intros Hs Hl. apply LI_sub; [exact Hs|rewrite Hl; apply incl_refl]. Qed.

Lemma objs_keep_set_obj_src s o x : (forall ob, objs s o = Some ob -> src_lc x = src_lc (o_src ob)) -> objs_keep s (set_obj_src s o x).
Proof.
  intros H o' ob' H'. unfold set_obj_src. destruct (objs s o) as [ob|] eqn:E; [|exists ob'; split; [exact H'|reflexivity]].
  cbn [objs set_objs]. unfold fupd. destruct (N.eqb_spec o' o) as [->|Hne].
  - rewrite E in H'. injection H' as <-. eexists. split; [reflexivity|]. cbn. apply H. reflexivity.
  - exists ob'. split; [exact H'|reflexivity].
Qed.
Lemma objs_keep_new_src s e1 o ob x : objs s o = Some ob -> src_lc x = src_lc (o_src ob) -> objs_keep s (set_obj_src (set_en s e1) o x).
Proof.
  intros Eo LC. apply (objs_keep_set_obj_src (set_en s e1)). intros ob0 E. change (objs s o = Some ob0) in E. rewrite Eo in E. injection E as <-. exact LC.
Qed.

Lemma in_lc_register l t x : In x (lc_register l t) -> In x l \/ x = t.
Proof.
  unfold lc_register. destruct (existsb (tok_eqb t) l); [left; assumption|]. intros H. apply in_app_or in H. destruct H as [H|H]; [left; exact H|]. destruct H as [H|H]; [right; symmetry; exact H|contradiction].
Qed.
Lemma in_lc_unregister l t x : In x (lc_unregister l t) -> In x l /\ tok_eqb x t = false.
Proof. unfold lc_unregister. intros H. apply filter_In in H as [A B]. split; [exact A|]. destruct (tok_eqb x t); [discriminate|reflexivity]. Qed.

Lemma same_slot_same_tok sl a b : same_source_as (s_tok sl) a = true -> same_source_as (s_tok sl) b = true -> t_sub a = 0 -> t_sub b = 0 -> a = b.
Proof.
  unfold same_source_as. intros H1 H2 A B. apply andb_prop in H1 as [A1 B1]. apply andb_prop in H2 as [A2 B2].
  apply N.eqb_eq in A1, B1, A2, B2. destruct a, b. cbn in *. congruence.
Qed.
Lemma slot_get_some s t sl : slot_get (slots s) t = Some sl -> nth_error (slots s) (N.to_nat (t_id t)) = Some sl /\ same_source_as (s_tok sl) t = true.
Proof.
  unfold slot_get. destruct (nth_error (slots s) (N.to_nat (t_id t))) as [sl0|]; [|discriminate].
  destruct (same_source_as (s_tok sl0) t) eqn:E; [|discriminate]. intros [= <-]. split; [reflexivity|exact E].
Qed.

Lemma excused_none s t : ~ excused s None t.
Proof. intros (o & ob & H & _). discriminate. Qed.

(* what register and reregister do once the source has answered: an entry recorded for t must resolve, or be the excused one *)
Lemma LI_registered s o t r ob rr x' e1 k : LI s r -> t_sub t = 0 -> objs s o = Some ob -> src_lc x' = src_lc (o_src ob) ->
  (src_lc (o_src ob) = true -> good s t \/ excused s r t) ->
  let s2 := set_obj_src (set_en s e1) o x' in
  LI match rr with
     | RROk => let s3 := regop s2 o x' k true in if src_lc x' then set_lifecycle s3 (lc_register (lifecycle s3) (forget_sub_id t)) else s3
     | RRErr => regop s2 o x' k false
     | RRPanic => panic s2 P_SUBID
     end r.
Proof.
  intros L Hs Eo LC Hent s2. pose proof (objs_keep_new_src s e1 o ob x' Eo LC) as K.
  assert (L2 : LI s2 r) by (apply (LI_frame s); [apply (slots_set_obj_src (set_en s e1))|apply (lifecycle_set_obj_src (set_en s e1))|exact K|exact L]).
  assert (LR : forall b, LI (regop s2 o x' k b) r)
    by (intros b; apply (LI_frame s2); [apply slots_regop|apply lifecycle_regop|apply objs_keep_eq; apply objs_regop|exact L2]).
  destruct rr; [|apply LR|exact L2]. cbv zeta. destruct (src_lc x') eqn:Elc; [|apply LR].
  destruct (LR true) as (A & B & C). split; [|split]; [|exact B|exact C].
  intros e He. cbn [lifecycle set_lifecycle] in He. apply in_lc_register in He. destruct He as [He|He]; [apply A; exact He|]. subst e.
  assert (F : forget_sub_id t = t) by (destruct t; cbn in *; subst; reflexivity). rewrite F. split; [exact Hs|].
  assert (S3 : slots (regop s2 o x' k true) = slots s) by (rewrite slots_regop; apply (slots_set_obj_src (set_en s e1))).
  assert (K3 : objs_keep s (regop s2 o x' k true)) by (intros o' ob' H'; rewrite objs_regop; exact (K o' ob' H')).
  destruct Hent as [G|E]; [congruence|left; exact (good_frame s _ t S3 K3 G)|right; exact (excused_frame s _ r t K3 E)].
Qed.
Lemma LI_disp_register s o t sl r : LI s r ->
  slot_get (slots s) t = Some sl -> s_obj sl = Some o -> t_sub t = 0 -> LI (snd (disp_register s o t)) r.
Proof.
  intros L Hg Ho Hs. unfold disp_register. destruct (objs s o) as [ob|] eqn:Eo; [|exact L].
  destruct (is_running s o); [apply (LI_frame s); [reflexivity|reflexivity|apply objs_keep_eq; reflexivity|exact L]|].
  pose proof (src_lc_register (en s) (o_src ob) (factory_new t)) as LC.
  destruct (src_register _ _ _) as [[rr x'] e1]. cbn [fst snd] in LC.
  assert (X := LI_registered s o t r ob rr x' e1 0%Z L Hs Eo LC). destruct rr; apply X; intros Hlc; left; exists sl, o, ob; repeat split; assumption.
Qed.
Lemma LI_disp_reregister_entry s o t r : LI s r -> t_sub t = 0 ->
  (forall ob, objs s o = Some ob -> src_lc (o_src ob) = true -> good s t \/ excused s r t) -> LI (snd (disp_reregister s o t)) r.
Proof.
  intros L Hs Hent. unfold disp_reregister. destruct (objs s o) as [ob|] eqn:Eo; [|exact L].
  destruct (is_running s o); [exact L|].
  pose proof (src_lc_reregister (en s) (o_src ob) (factory_new t)) as LC.
  destruct (src_reregister _ _ _) as [[rr x'] e1]. cbn [fst snd] in LC.
  assert (X := LI_registered s o t r ob rr x' e1 1%Z L Hs Eo LC (Hent ob eq_refl)). destruct rr; exact X.
Qed.
Lemma LI_disp_reregister s o t sl r : LI s r ->
  slot_get (slots s) t = Some sl -> s_obj sl = Some o -> t_sub t = 0 -> LI (snd (disp_reregister s o t)) r.
Proof.
  intros L Hg Ho Hs. apply LI_disp_reregister_entry; [exact L|exact Hs|]. intros ob Eo Hlc. left. exists sl, o, ob. repeat split; assumption.
Qed.

Lemma disp_unregister_removes s o t ob : is_running s o = false -> objs s o = Some ob -> src_lc (o_src ob) = true ->
  ~ In t (lifecycle (snd (disp_unregister s o t))).
Proof.
  intros Hr Eo Hlc He.
  pose proof (disp_unregister_done' s o t Hr) as D. destruct (disp_unregister s o t) as [[r d] s'] eqn:EU. cbn [fst snd] in D, He. subst d.
  exact (disp_unregister_drops_lifecycle s o t r s' ob Eo Hlc EU Hr He).
Qed.
Lemma disp_unregister_lifecycle_sub s o t e : In e (lifecycle (snd (disp_unregister s o t))) -> In e (lifecycle s).
Proof.
  unfold disp_unregister. destruct (objs s o) as [ob|]; [|tauto]. destruct (is_running s o); [tauto|].
  destruct (src_unregister _ _) as [[ok x'] e1]. cbn [snd]. destruct (src_lc x'); cbn [lifecycle set_lifecycle]; intros He;
    [apply in_lc_unregister in He as [He _]|]; rewrite lifecycle_regop, lifecycle_set_obj_src in He; exact He.
Qed.
Lemma disp_unregister_objs_keep s o t : objs_keep s (snd (disp_unregister s o t)).
Proof.
  unfold disp_unregister. destruct (objs s o) as [ob|] eqn:Eo; [|apply objs_keep_refl]. destruct (is_running s o); [apply objs_keep_refl|].
  pose proof (src_lc_unregister (en s) (o_src ob)) as LC.
  destruct (src_unregister _ _) as [[ok x'] e1]. cbn [fst snd] in *.
  pose proof (objs_keep_new_src s e1 o ob x' Eo LC) as K.
  intros o' ob' H'. destruct (K o' ob' H') as [ob2 [A B]]. exists ob2. destruct (src_lc x'); cbn [objs set_lifecycle]; rewrite objs_regop; split; assumption.
Qed.
(* unregistering only removes entries *)
Lemma LI_disp_unregister s o t r : LI s r -> LI (snd (disp_unregister s o t)) r.
Proof. apply LI_sub; [apply slots_disp_unregister|intros e; apply disp_unregister_lifecycle_sub|apply disp_unregister_objs_keep]. Qed.

(* ---------- entries resolving to slots that stay as they are ---------- *)
Lemma good_keep s s' e : good s e ->
  (forall j sl, nth_error (slots s) j = Some sl -> s_obj sl <> None -> nth_error (slots s') j = Some sl) ->
  objs_keep s s' -> good s' e.
Proof.
  intros (sl & o & ob & A & B & C & D) Hs Ho. destruct (Ho o ob C) as [ob' [C' D']].
  exists sl, o, ob'. repeat split; try assumption; [|congruence].
  destruct (slot_get_some _ _ _ A) as [En Es]. unfold slot_get. rewrite (Hs _ _ En) by congruence. rewrite Es. reflexivity.
Qed.

Lemma in_slots_spec l o : in_slots l o = true <-> exists i sl, nth_error l i = Some sl /\ s_obj sl = Some o.
Proof.
  unfold in_slots. rewrite existsb_exists. split.
  - intros [sl [Hin H]]. destruct (s_obj sl) as [x|] eqn:E; [|discriminate]. apply N.eqb_eq in H. subst x.
    apply In_nth_error in Hin as [i Hi]. exists i, sl. split; assumption.
  - intros (i & sl & Hi & Ho). exists sl. split; [eapply nth_error_In; exact Hi|]. rewrite Ho. apply N.eqb_refl.
Qed.

Lemma maybe_drop_objs s o o' ob' : objs s o' = Some ob' -> (o' <> o \/ in_slots (slots s) o = true) -> objs (maybe_drop s o) o' = Some ob'.
Proof.
  intros H Hc. unfold maybe_drop. destruct (objs s o) as [ob|]; [|exact H].
  destruct (o_ext ob || in_slots (slots s) o) eqn:E; [exact H|]. destruct (is_running s o); [exact H|].
  unfold drop_obj. cbn [objs emit set_log set_objs set_en]. unfold fupd. destruct (N.eqb_spec o' o) as [->|Hne]; [|exact H].
  destruct Hc as [Hc|Hc]; [congruence|]. rewrite Hc, orb_true_r in E. discriminate.
Qed.
Lemma lifecycle_maybe_drop s o : lifecycle (maybe_drop s o) = lifecycle s.
Proof. unfold maybe_drop, drop_obj. destruct (objs s o) as [ob|]; [|reflexivity]. destruct (o_ext ob || in_slots (slots s) o); [reflexivity|]. destruct (is_running s o); reflexivity. Qed.

Lemma slot_get_in_slots s t sl o : slot_get (slots s) t = Some sl -> s_obj sl = Some o -> in_slots (slots s) o = true.
Proof. intros G Ho. destruct (slot_get_some _ _ _ G) as [Hn _]. apply in_slots_spec. exists (N.to_nat (t_id t)), sl. split; assumption. Qed.

Lemma maybe_drop_keeps_running s o o' t : running s = Some (o', t) -> objs (maybe_drop s o) o' = objs s o'.
Proof. intros H. apply objs_maybe_drop_running. exact (is_running_some s o' t H). Qed.
(* maybe_drop only drops an object that no slot holds and that is not being processed: no entry resolves to it *)
Lemma LI_maybe_drop s o : LI s (running s) -> LI (maybe_drop s o) (running s).
Proof.
  intros (A & B & C). split; [|split].
  - intros e He. rewrite lifecycle_maybe_drop in He. destruct (A e He) as [S [G|E]]; (split; [exact S|]); [left|right].
    + destruct G as (sl & o' & ob' & G1 & G2 & G3 & G4). exists sl, o', ob'. rewrite slots_maybe_drop. repeat split; try assumption.
      apply maybe_drop_objs; [exact G3|]. destruct (N.eq_dec o' o) as [->|Hne]; [right|left; exact Hne].
      exact (slot_get_in_slots s e sl o G1 G2).
    + destruct E as (o' & ob' & E1 & E2 & E3). exists o', ob'. repeat split; try assumption. rewrite (maybe_drop_keeps_running s o o' e E1). exact E2.
  - intros i sl o' Hn Ho. rewrite slots_maybe_drop in Hn. specialize (B i sl o' Hn Ho). destruct (objs s o') as [ob'|] eqn:E; [|congruence].
    rewrite (maybe_drop_objs s o o' ob' E); [discriminate|]. destruct (N.eq_dec o' o) as [->|Hne]; [right|left; exact Hne].
    apply in_slots_spec. exists i, sl. split; assumption.
  - intros o' t H. rewrite (maybe_drop_keeps_running s o o' t H). exact (C o' t H).
Qed.

Lemma nth_error_upd_inv {A} (l : list A) i old new j x : nth_error l i = Some old -> nth_error (upd l i new) j = Some x ->
  (j = i /\ x = new) \/ (j <> i /\ nth_error l j = Some x).
Proof.
  intros Hi Hj. destruct (Nat.eq_dec i j) as [<-|Ne]; [left|right].
  - rewrite (nth_error_upd_eq _ _ _ _ Hi) in Hj. injection Hj as <-. split; reflexivity.
  - rewrite nth_error_upd_other in Hj by exact Ne. split; [intros X; apply Ne; symmetry; exact X|exact Hj].
Qed.
Lemma lookup_spec s h t et o : lookup s h = Some (t, et, o) ->
  toks s h = Some t /\ exists sl, nth_error (slots s) (N.to_nat (t_id t)) = Some sl /\ same_source_as (s_tok sl) t = true /\ s_obj sl = Some o /\ et = s_tok sl.
Proof.
  unfold lookup. destruct (toks s h) as [t0|]; [|discriminate]. unfold slot_get.
  destruct (nth_error (slots s) (N.to_nat (t_id t0))) as [sl|] eqn:En; [|discriminate].
  destruct (same_source_as (s_tok sl) t0) eqn:Es; [|discriminate]. destruct (s_obj sl) as [o0|] eqn:Eo; [|discriminate].
  intros [= <- <- <-]. split; [reflexivity|]. exists sl. repeat split; assumption.
Qed.

(* h's source may be the one being processed: then its unregistration is deferred and its entry becomes the excused one, which
   is right provided the token recorded for the processed source is the handle's *)
Lemma LI_do_remove s h : LI s (running s) -> TS s ->
  (forall t et o rt, lookup s h = Some (t, et, o) -> running s = Some (o, rt) -> rt = t) ->
  LI (do_remove s h) (running s).
Proof.
  intros L T HR. unfold do_remove. destruct (lookup s h) as [[[t et] o]|] eqn:El.
  2:{ eapply LI_frame; [reflexivity|reflexivity|apply objs_keep_refl|exact L]. }
  destruct (lookup_spec _ _ _ _ _ El) as (Ht & sl & Hn & Hss & Hob & _).
  pose proof (T h t Ht) as Tsub. specialize (fun rt => HR t et o rt eq_refl).
  set (i0 := N.to_nat (t_id t)) in *.
  set (s1 := set_slots s (slot_set_obj (slots s) t None)).
  assert (SL1 : slots s1 = upd (slots s) i0 (mkSlot (s_tok sl) None (s_gen sl))).
  { unfold s1. cbn [slots set_slots]. unfold slot_set_obj. fold i0. rewrite Hn. reflexivity. }
  pose proof (disp_unregister_objs_keep s1 o t) as K.
  pose proof (slots_disp_unregister s1 o t) as FS.
  assert (FR : running (snd (disp_unregister s1 o t)) = running s) by exact (running_disp_unregister s1 o t).
  pose proof (disp_unregister_lifecycle_sub s1 o t) as FL.
  pose proof (disp_unregister_removes s1 o t) as RM.
  assert (RUNNING_CASE : is_running s1 o = true -> snd (disp_unregister s1 o t) = s1).
  { intros Hr. unfold disp_unregister. destruct (objs s1 o); [|reflexivity]. rewrite Hr. reflexivity. }
  destruct (disp_unregister s1 o t) as [[r d] s2]. cbn [snd] in *.
  assert (L2 : LI s2 (running s)).
  { destruct L as (A & B & C). split; [|split].
    - intros e He. pose proof (FL e He) as He0. destruct (A e He0) as [S [Gd|E]]; (split; [exact S|]).
      + destruct Gd as (sle & oe & obe & G1 & G2 & G3 & G4). destruct (slot_get_some _ _ _ G1) as [En0 Es0].
        destruct (Nat.eq_dec (N.to_nat (t_id e)) i0) as [Eq|Ne].
        * (* the entry of the vacated slot *)
          rewrite Eq, Hn in En0. injection En0 as <-. rewrite Hob in G2. injection G2 as <-.
          assert (Eet : e = t) by (eapply same_slot_same_tok; eassumption). subst e.
          destruct (is_running s1 o) eqn:Er.
          -- (* the source removes itself: deferred; its entry is excused *)
             right. unfold is_running in Er. change (running s1) with (running s) in Er. destruct (running s) as [[ro rt]|]; [|discriminate].
             apply N.eqb_eq in Er. subst ro. rewrite (HR rt eq_refl).
             exists o, obe. rewrite (RUNNING_CASE eq_refl). repeat split; assumption.
          -- exfalso. exact (RM obe eq_refl G3 G4 He).
        * left. destruct (K oe obe G3) as [ob2 [K1 K2]]. exists sle, oe, ob2. repeat split; try assumption; [|congruence].
          unfold slot_get. rewrite FS, SL1, nth_error_upd_other by (intros X; apply Ne; symmetry; exact X). rewrite En0, Es0. reflexivity.
      + right. destruct E as (o' & ob' & E1 & E2 & E3). destruct (K o' ob' E2) as [ob2 [K1 K2]]. exists o', ob2. repeat split; try assumption. congruence.
    - intros j slj oj Hj Hoj. rewrite FS, SL1 in Hj. destruct (nth_error_upd_inv _ _ _ _ _ _ Hn Hj) as [[_ ->]|[_ Hj']]; [discriminate|].
      specialize (B j slj oj Hj' Hoj). destruct (objs s oj) as [obj|] eqn:E; [|congruence]. destruct (K oj obj E) as [ob2 [K1 _]]. congruence.
    - intros o' t' H. specialize (C o' t' H). destruct (objs s o') as [ob'|] eqn:E; [|congruence]. destruct (K o' ob' E) as [ob2 [K1 _]]. congruence. }
  rewrite <- FR in L2 |- *. apply (LI_maybe_drop s2 o) in L2.
  apply (LI_frame (maybe_drop s2 o)); [reflexivity|reflexivity|apply objs_keep_eq; reflexivity|exact L2].
Qed.

Lemma toks_do_remove s h : toks (do_remove s h) = toks s.
Proof.
  unfold do_remove. destruct (lookup s h) as [[[t et] o]|]; [|reflexivity].
  match goal with |- context [disp_unregister ?a ?b ?c] => pose proof (toks_disp_unregister a b c) as F; destruct (disp_unregister a b c) as [[r d] s2] end.
  cbn [snd] in F. cbn [toks emit set_log]. rewrite toks_maybe_drop. exact F.
Qed.
Lemma running_do_remove s h : running (do_remove s h) = running s.
Proof. apply (astar_running (ARemove h)), do_remove_astar. Qed.
Lemma running_do_insert s h x : running (do_insert s h x) = running s.
Proof. apply (astar_running (AInsert h x)), do_insert_astar. Qed.

Lemma LI_occupied_keep s s' r : LI s r -> lifecycle s' = lifecycle s ->
  (forall j sl, nth_error (slots s) j = Some sl -> s_obj sl <> None -> nth_error (slots s') j = Some sl) ->
  objs_keep s s' ->
  (forall i sl o, nth_error (slots s') i = Some sl -> s_obj sl = Some o -> objs s' o <> None) -> LI s' r.
Proof.
  intros (A & B & C) Hl Hs Ho HB. split; [|split]; [|exact HB|].
  - intros e He. rewrite Hl in He. destruct (A e He) as [S [G|E]]; (split; [exact S|]); [left; eapply good_keep; eassumption|right; eapply excused_frame; eassumption].
  - intros o t H. specialize (C o t H). destruct (objs s o) as [ob|] eqn:E; [|congruence]. destruct (Ho o ob E) as [ob' [E' _]]. congruence.
Qed.

Lemma vacant_entry_spec l i l' : vacant_entry l = Some (i, l') ->
  (forall j sl, nth_error l j = Some sl -> s_obj sl <> None -> j <> i /\ nth_error l' j = Some sl) /\
  (forall j, j <> i -> nth_error l' j = nth_error l j) /\
  exists e, nth_error l' i = Some e /\ s_obj e = None.
Proof.
  unfold vacant_entry. destruct (find_vacant l 0) as [k|] eqn:Ef.
  - destruct (nth_error l k) as [sl|] eqn:En; [|discriminate]. intros [= <- <-].
    destruct (find_vacant_spec l 0 k Ef) as [_ [sl0 [Hn Ho]]]. rewrite Nat.sub_0_r, En in Hn. injection Hn as <-.
    split; [|split].
    + intros j slj Hj Hne. assert (j <> k) by (intros ->; rewrite En in Hj; injection Hj as <-; congruence).
      split; [assumption|]. rewrite nth_error_upd_other by (intros X; apply H; symmetry; exact X). exact Hj.
    + intros j Hj. apply nth_error_upd_other. intros X. apply Hj. symmetry. exact X.
    + eexists. split; [eapply nth_error_upd_eq; exact En|reflexivity].
  - destruct (tok_new (N.of_nat (length l))) as [t|]; [|discriminate]. intros [= <- <-].
    split; [|split].
    + intros j slj Hj Hne. assert (Hlt : (j < length l)%nat) by (apply nth_error_Some; congruence).
      split; [lia|]. rewrite nth_error_app1 by exact Hlt. exact Hj.
    + intros j Hj. destruct (Nat.lt_ge_cases j (length l)) as [Hlt|Hge]; [apply nth_error_app1; exact Hlt|].
      rewrite nth_error_app2 by exact Hge. destruct (j - length l)%nat as [|n] eqn:E; [lia|]. cbn. destruct n; cbn; symmetry; apply nth_error_None; lia.
    + eexists. split; [rewrite nth_error_app2 by lia; rewrite Nat.sub_diag; reflexivity|reflexivity].
Qed.

Lemma disp_register_objs_keep s o t : objs_keep s (snd (disp_register s o t)).
Proof.
  unfold disp_register. destruct (objs s o) as [ob|] eqn:Eo; [|apply objs_keep_refl]. destruct (is_running s o); [apply objs_keep_eq; reflexivity|].
  pose proof (src_lc_register (en s) (o_src ob) (factory_new t)) as LC.
  destruct (src_register _ _ _) as [[r x'] e1]. cbn [fst snd] in LC.
  pose proof (objs_keep_new_src s e1 o ob x' Eo LC) as K.
  destruct r; cbn [snd]; try destruct (src_lc x'); intros o' ob' H'; destruct (K o' ob' H') as [ob2 [A2 B2]]; exists ob2;
    cbn [objs set_lifecycle panic set_halted emit set_log]; rewrite ?objs_regop; split; assumption.
Qed.

Lemma LI_do_insert s h x : LI s (running s) -> slots_wf (slots s) -> LI (do_insert s h x) (running s).
Proof.
  intros L W. unfold do_insert. destruct (objs s h) eqn:Eh; [eapply LI_frame; [reflexivity|reflexivity|apply objs_keep_refl|exact L]|].
  set (s0 := set_objs s (fupd (objs s) h (Some (mkObj x true)))).
  assert (K0 : objs_keep s s0).
  { intros o ob H. exists ob. split; [|reflexivity]. unfold s0. cbn [objs set_objs]. unfold fupd. destruct (N.eqb_spec o h) as [->|]; [congruence|exact H]. }
  assert (Hh0 : objs s0 h = Some (mkObj x true)) by (unfold s0; cbn [objs set_objs]; unfold fupd; rewrite N.eqb_refl; reflexivity).
  destruct (vacant_entry (slots s0)) as [[i sl]|] eqn:Ev.
  2:{ apply (LI_frame s); [reflexivity|reflexivity|exact K0|exact L]. }
  change (slots s0) with (slots s) in Ev.
  destruct (vacant_entry_spec _ _ _ Ev) as (V1 & V2 & e & He & Heo). rewrite He.
  destruct (vacant_entry_sstep _ _ _ Ev) as [[Wv _] _]. specialize (Wv W). destruct (Wv i e He) as (We & Wid & Wsub & _).
  set (t := s_tok e).
  set (s1 := set_slots s0 (upd sl i (mkSlot t (Some h) (s_gen e)))).
  (* the slots of s1, s2 and of the failure state, slot by slot *)
  assert (Hnth : forall o' j slj, nth_error (upd sl i (mkSlot t o' (s_gen e))) j = Some slj ->
                 (j = i /\ slj = mkSlot t o' (s_gen e)) \/ nth_error (slots s) j = Some slj).
  { intros o' j slj Hj. destruct (nth_error_upd_inv _ _ _ _ _ _ He Hj) as [X|[Ne Hj']]; [left; exact X|right]. rewrite <- (V2 j Ne). exact Hj'. }
  assert (Hocc : forall o' j slj, nth_error (slots s) j = Some slj -> s_obj slj <> None -> nth_error (upd sl i (mkSlot t o' (s_gen e))) j = Some slj).
  { intros o' j slj Hj Hne. destruct (V1 j slj Hj Hne) as [Hji Hj']. rewrite nth_error_upd_other by (intros X; apply Hji; symmetry; exact X). exact Hj'. }
  assert (L1 : LI s1 (running s)).
  { apply (LI_occupied_keep s); [exact L|reflexivity|intros j slj Hj Hne; exact (Hocc (Some h) j slj Hj Hne)|exact K0|].
    intros j slj oj Hj Hoj. unfold s1 in Hj. cbn [slots set_slots] in Hj. destruct (Hnth (Some h) j slj Hj) as [[-> ->]|Hj'].
    - cbn in Hoj. injection Hoj as <-. change (objs s1 h) with (objs s0 h). rewrite Hh0. discriminate.
    - destruct L as (_ & B & _). specialize (B j slj oj Hj' Hoj). destruct (objs s oj) as [obj|] eqn:E; [|congruence].
      destruct (K0 oj obj E) as [ob' [E' _]]. change (objs s1 oj) with (objs s0 oj). congruence. }
  assert (G1 : slot_get (slots s1) t = Some (mkSlot t (Some h) (s_gen e))).
  { unfold slot_get, s1. cbn [slots set_slots]. unfold t. rewrite Wid, Nat2N.id, (nth_error_upd_eq _ _ _ _ He). cbn [s_tok].
    unfold same_source_as. rewrite !N.eqb_refl. reflexivity. }
  pose proof (LI_disp_register s1 h t _ (running s) L1 G1 eq_refl Wsub) as L2.
  pose proof (slots_disp_register s1 h t) as FS.
  pose proof (disp_register_fail_lifecycle s1 h t) as FLerr.
  pose proof (disp_register_objs_keep s1 h t) as KR.
  destruct (disp_register s1 h t) as [r s2]. cbn [fst snd] in *.
  (* if the registration panicked (excluded call / sub-id exhaustion) the state is s2 *)
  destruct (halted s2); [exact L2|].
  (* the registration failed: the slot is vacated again, and no entry was recorded *)
  assert (FAIL : forall r', r <> ROk ->
            LI (emit (set_slots s2 (upd (slots s2) i (mkSlot t None (s_gen e)))) (op_line OP_INSERT h r')) (running s)).
  { intros r' Hnok.
    assert (SLf : slots (emit (set_slots s2 (upd (slots s2) i (mkSlot t None (s_gen e)))) (op_line OP_INSERT h r')) = upd sl i (mkSlot t None (s_gen e))).
    { cbn [slots emit set_log set_slots]. rewrite FS. unfold s1. cbn [slots set_slots]. apply upd_upd. }
    assert (Kf : objs_keep s s2).
    { eapply objs_keep_trans; [exact K0|]. eapply objs_keep_trans; [apply (objs_keep_eq s0 s1); reflexivity|exact KR]. }
    apply (LI_occupied_keep s); [exact L| | |exact Kf|].
    - cbn [lifecycle emit set_log set_slots]. rewrite (FLerr r s2 eq_refl Hnok). reflexivity.
    - intros j slj Hj Hne. rewrite SLf. exact (Hocc None j slj Hj Hne).
    - intros j slj oj Hj Hoj. rewrite SLf in Hj. destruct (Hnth None j slj Hj) as [[_ ->]|Hj']; [discriminate|].
      destruct L as (_ & B & _). specialize (B j slj oj Hj' Hoj). destruct (objs s oj) as [obj|] eqn:E; [|congruence].
      destruct (Kf oj obj E) as [ob2 [E2 _]]. cbn [objs emit set_log set_slots]. congruence. }
  destruct r; [apply (LI_frame s2); [reflexivity|reflexivity|apply objs_keep_eq; reflexivity|exact L2]|apply FAIL; discriminate..].
Qed.

Lemma slot_get_of_lookup s h t et o : slots_wf (slots s) -> lookup s h = Some (t, et, o) ->
  exists sl, slot_get (slots s) et = Some sl /\ s_obj sl = Some o /\ t_sub et = 0.
Proof.
  intros W El. destruct (lookup_spec _ _ _ _ _ El) as (_ & sl & Hn & Hss & Hob & ->).
  destruct (W _ _ Hn) as (_ & Wid & Wsub & _).
  exists sl. unfold slot_get. assert (E : t_id (s_tok sl) = t_id t) by (unfold same_source_as in Hss; apply andb_prop in Hss as [A _]; apply N.eqb_eq in A; exact A).
  rewrite E, Hn. unfold same_source_as. rewrite !N.eqb_refl. repeat split; assumption.
Qed.

Lemma LI_drop_obj s o ob : LI s (running s) -> in_slots (slots s) o = false -> is_running s o = false -> LI (drop_obj s o ob) (running s).
Proof.
  intros (A & B & C) Hns Hnr.
  assert (Hrun : forall o' t, running s = Some (o', t) -> o' <> o).
  { intros o' t H ->. rewrite (is_running_some s o t H) in Hnr. discriminate. }
  split; [|split].
  - intros e He. destruct (A e He) as [S [G|E]]; (split; [exact S|]); [left|right].
    + destruct G as (sl & o' & ob' & G1 & G2 & G3 & G4). exists sl, o', ob'. repeat split; try assumption.
      unfold drop_obj. cbn [objs emit set_log set_objs set_en]. unfold fupd. destruct (N.eqb_spec o' o) as [->|]; [|exact G3].
      rewrite (slot_get_in_slots s e sl o G1 G2) in Hns. discriminate.
    + destruct E as (o' & ob' & E1 & E2 & E3). exists o', ob'. repeat split; try assumption.
      unfold drop_obj. cbn [objs emit set_log set_objs set_en]. unfold fupd. destruct (N.eqb_spec o' o) as [->|]; [exfalso; exact (Hrun o e E1 eq_refl)|exact E2].
  - intros i sl o' Hn Ho. unfold drop_obj. cbn [objs emit set_log set_objs set_en]. unfold fupd. destruct (N.eqb_spec o' o) as [->|]; [|exact (B i sl o' Hn Ho)].
    exfalso. assert (X : in_slots (slots s) o = true); [|congruence]. apply in_slots_spec. exists i, sl. split; assumption.
  - intros o' t H. unfold drop_obj. cbn [objs emit set_log set_objs set_en]. unfold fupd. destruct (N.eqb_spec o' o) as [->|]; [exfalso; exact (Hrun o t H eq_refl)|exact (C o' t H)].
Qed.

(* the last hypothesis is about remove alone: see LI_do_remove *)
Lemma LI_exec_action s a : LI s (running s) -> slots_wf (slots s) -> TS s ->
  (forall h t et o rt, lookup s h = Some (t, et, o) -> running s = Some (o, rt) -> rt = t) ->
  LI (exec_action s a) (running s).
Proof.
  intros L W T HR. unfold exec_action. destruct (halted s); [exact L|].
  assert (FR : forall s', slots s' = slots s -> lifecycle s' = lifecycle s -> objs s' = objs s -> LI s' (running s))
    by (intros s' A1 A2 A3; apply (LI_frame s); [exact A1|exact A2|apply objs_keep_eq; exact A3|exact L]).
  destruct a; try (apply FR; reflexivity).
  - apply LI_do_insert; assumption.
  - apply LI_do_remove; [exact L|exact T|apply HR].
  - (* disable *)
    unfold do_disable. destruct (lookup s h) as [[[t et] o]|] eqn:El; [|apply FR; reflexivity].
    pose proof (LI_disp_unregister s o t (running s) L) as L1. destruct (disp_unregister s o t) as [[r d] s1]. cbn [snd] in L1.
    destruct r; [destruct d|..]; (eapply LI_frame; [reflexivity|reflexivity|apply objs_keep_refl|exact L1]).
  - (* enable *)
    unfold do_enable. destruct (lookup s h) as [[[t et] o]|] eqn:El; [|apply FR; reflexivity].
    destruct (slot_get_of_lookup _ _ _ _ _ W El) as (sl & G & Ho & Hs).
    pose proof (LI_disp_register s o et sl (running s) L G Ho Hs) as L1. destruct (disp_register s o et) as [r s1]. cbn [snd] in L1.
    destruct (halted s1); [exact L1|]. eapply LI_frame; [reflexivity|reflexivity|apply objs_keep_refl|exact L1].
  - (* update *)
    unfold do_update. destruct (lookup s h) as [[[t et] o]|] eqn:El; [|apply FR; reflexivity].
    destruct (slot_get_of_lookup _ _ _ _ _ W El) as (sl & G & Ho & Hs).
    pose proof (LI_disp_reregister s o et sl (running s) L G Ho Hs) as L1. destruct (disp_reregister s o et) as [[r d] s1]. cbn [snd] in L1.
    destruct (halted s1); [exact L1|]. destruct r; [destruct d|..]; (eapply LI_frame; [reflexivity|reflexivity|apply objs_keep_refl|exact L1]).
  - (* setint *)
    unfold do_setint. destruct (objs s h) as [ob|] eqn:Eo; [|apply FR; reflexivity].
    destruct (negb (o_ext ob)); [apply FR; reflexivity|]. destruct (is_running s h); [apply FR; reflexivity|].
    destruct (o_src ob) as [lc own subs tmr|g|tm|c g] eqn:Es; try (apply FR; reflexivity).
    eapply LI_frame; [cbn; apply slots_set_obj_src|cbn; apply lifecycle_set_obj_src| |exact L].
    eapply objs_keep_trans; [apply objs_keep_set_obj_src|apply objs_keep_eq; reflexivity]. intros ob0 E. rewrite Eo in E. injection E as <-. rewrite Es. reflexivity.
  - (* setdl *)
    unfold do_setdl. destruct (objs s h) as [ob|] eqn:Eo; [|apply FR; reflexivity].
    destruct (negb (o_ext ob)); [apply FR; reflexivity|]. destruct (is_running s h); [apply FR; reflexivity|].
    destruct (o_src ob) as [lc own subs [tm|]|g|tm|c g] eqn:Es; try (apply FR; reflexivity).
    + eapply LI_frame; [cbn; apply slots_set_obj_src|cbn; apply lifecycle_set_obj_src| |exact L].
      eapply objs_keep_trans; [apply objs_keep_set_obj_src|apply objs_keep_eq; reflexivity]. intros ob0 E. rewrite Eo in E. injection E as <-. rewrite Es. reflexivity.
    + eapply LI_frame; [cbn; apply slots_set_obj_src|cbn; apply lifecycle_set_obj_src| |exact L].
      eapply objs_keep_trans; [apply objs_keep_set_obj_src|apply objs_keep_eq; reflexivity]. intros ob0 E. rewrite Eo in E. injection E as <-. rewrite Es. reflexivity.
  - (* intoinner *)
    unfold do_intoinner. destruct (objs s h) as [ob|] eqn:Eo; [|apply FR; reflexivity].
    destruct (negb (o_ext ob)); [apply FR; reflexivity|].
    destruct (in_slots (slots s) h || is_running s h) eqn:E; [apply FR; reflexivity|].
    apply orb_false_iff in E as [E1 E2].
    pose proof (LI_drop_obj s h ob L E1 E2) as L1. eapply LI_frame; [reflexivity|reflexivity|apply objs_keep_refl|exact L1].
  - (* dropdisp *)
    unfold do_dropdisp. destruct (objs s h) as [ob|] eqn:Eo; [|apply FR; reflexivity].
    destruct (negb (o_ext ob)); [apply FR; reflexivity|].
    set (s1 := set_objs s (fupd (objs s) h (Some (mkObj (o_src ob) false)))).
    assert (L1 : LI s1 (running s1)).
    { apply (LI_frame s); [reflexivity|reflexivity| |exact L]. intros o' ob' H'. unfold s1. cbn [objs set_objs]. unfold fupd.
      destruct (N.eqb_spec o' h) as [->|]; [|exists ob'; split; [exact H'|reflexivity]]. rewrite Eo in H'. injection H' as <-. eexists. split; reflexivity. }
    apply (LI_maybe_drop s1 h) in L1. apply (LI_frame (maybe_drop s1 h)); [reflexivity|reflexivity|apply objs_keep_eq; reflexivity|exact L1].
  - unfold do_send. destruct (env_send _ _ _) as [e' [rc|]]; apply FR; reflexivity.
  - unfold do_send. destruct (env_send _ _ _) as [e' [rc|]]; apply FR; reflexivity.
  - unfold do_cancelidle. destruct (match ridle s with Some r => r =? i | None => false end); apply FR; reflexivity.
Qed.

(* handle tokens are slot tokens: the one write that gives a handle a token takes it from a well-formed slot *)
Lemma astep_TS act s s' : astep act s s' -> slots_wf (slots s) -> TS s -> TS s'.
Proof.
  intros St Wx Tx.
  destruct St as [s e' E|s args|s k|s h x0 _ Eh|s i sl e h _ _ _|s i t h g _ _|s i t h g Hn|s o t _|s o t _|s o t|s p _ _|s t _|s o|
                  s h ob lc own subs tmr j it m _ _ _|s h ob dl _ _|s h ob _ _|s h ob _|s i _|s i]; try exact Tx.
  - intros h' t' H. cbn [toks set_toks] in H. unfold fupd in H. destruct (h' =? h); [|exact (Tx h' t' H)].
    injection H as <-. destruct (Wx _ _ Hn) as (_ & _ & Hs & _). exact Hs.
  - intros h' t' H. rewrite toks_disp_register in H. exact (Tx h' t' H).
  - intros h' t' H. rewrite toks_disp_reregister in H. exact (Tx h' t' H).
  - intros h' t' H. rewrite toks_disp_unregister in H. exact (Tx h' t' H).
  - intros h' t' H. rewrite toks_maybe_drop in H. exact (Tx h' t' H).
  - intros h' t' H. rewrite toks_set_obj_src in H. exact (Tx h' t' H).
  - intros h' t' H. rewrite toks_set_obj_src in H. exact (Tx h' t' H).
Qed.
Lemma star_TS act (a b : st) : star (astep act) a b -> TS a -> slots_wf (slots a) -> TS b.
Proof.
  induction 1 as [x|x y z St _ IH]; intros T W; [exact T|].
  apply IH; [exact (astep_TS act x y St W T)|apply (proj1 (astep_sstep act x y St)); exact W].
Qed.
Lemma TS_do_insert s h x : TS s -> slots_wf (slots s) -> TS (do_insert s h x).
Proof. apply (star_TS (AInsert h x)), do_insert_astar. Qed.
Lemma TS_exec_action s a : TS s -> slots_wf (slots s) -> TS (exec_action s a).
Proof. apply (star_TS a), exec_action_astar. Qed.

Lemma INV_exec_action s a : INV s -> INV (exec_action s a).
Proof.
  intros (L & W & T & Hr). pose proof (LI_exec_action s a) as L'. rewrite Hr in L'.
  split; [apply L'; try assumption; intros; discriminate|]. split; [apply (proj1 (exec_action_sstep s a)); exact W|].
  split; [apply TS_exec_action; assumption|]. rewrite running_exec_action. exact Hr.
Qed.
Lemma INV_exec_actions l : forall s, INV s -> INV (exec_actions s l).
Proof. unfold exec_actions. induction l as [|a l IH]; intros s I; cbn; [exact I|]. apply IH. apply INV_exec_action. exact I. Qed.
Lemma INV_init : INV init.
Proof.
  split; [|split; [|split]].
  - split; [|split]; [intros t []|intros [|i] sl o H; discriminate|intros o t H; discriminate].
  - intros [|i] sl H; discriminate.
  - intros h t H. discriminate.
  - reflexivity.
Qed.

(* every entry resolves, so the lifecycle loops of the next dispatch cannot reach unreachable!() *)
Lemma LI_resolves s : LI s None -> forall t, In t (lifecycle s) -> exists o, lc_lookup s t = Some o.
Proof.
  intros (A & _) t Ht. destruct (A t Ht) as [_ [G|E]]; [|destruct (excused_none _ _ E)].
  destruct G as (sl & o & ob & G1 & G2 & _). exists o. unfold lc_lookup. rewrite G1. exact G2.
Qed.
Lemma before_sleep_loop_no_panic bscr l : forall s,
  (forall t, In t l -> exists o, lc_lookup s t = Some o) -> snd (before_sleep_loop bscr s l) <> BSPanic.
Proof.
  induction l as [|t r IH]; intros s H; cbn [before_sleep_loop]; [discriminate|].
  destruct (H t (or_introl eq_refl)) as [o Ho]. rewrite Ho.
  assert (Hr : forall s', slots s' = slots s -> forall t', In t' r -> exists o', lc_lookup s' t' = Some o').
  { intros s' Hs t' Hin. destruct (H t' (or_intror Hin)) as [o' Ho']. exists o'. unfold lc_lookup in *. rewrite Hs. exact Ho'. }
  destruct (nth (bsn s o) (bscr o) 0) as [|p].
  - apply IH. apply Hr. reflexivity.
  - destruct p; try (cbn; discriminate).
    destruct (match objs _ o with Some _ => _ | None => _ end); apply IH; apply Hr; reflexivity.
Qed.
Lemma before_handle_loop_no_panic l polled : forall s,
  (forall t, In t l -> exists o, lc_lookup s t = Some o) -> snd (before_handle_loop s l polled) = true.
Proof.
  induction l as [|t r IH]; intros s H; cbn [before_handle_loop]; [reflexivity|].
  destruct (H t (or_introl eq_refl)) as [o Ho]. rewrite Ho. apply IH.
  intros t' Hin. destruct (H t' (or_intror Hin)) as [o' Ho']. exists o'. exact Ho'.
Qed.
Lemma LI_loops_safe s bscr : LI s None ->
  snd (before_sleep_loop bscr s (lifecycle s)) <> BSPanic /\
  forall e2 line polled, let s1 := fst (before_sleep_loop bscr s (lifecycle s)) in
    snd (before_handle_loop (emit (set_en s1 e2) line) (lifecycle (emit (set_en s1 e2) line)) polled) = true.
Proof.
  intros L. pose proof (LI_resolves _ L) as R. split; [apply before_sleep_loop_no_panic; exact R|].
  intros e2 line polled. cbv zeta. destruct (before_sleep_loop_writes bscr (lifecycle s) s) as (b & y & h & lg & ->).
  apply before_handle_loop_no_panic. exact R.
Qed.

(* ANY sequence of top-level operations from the empty loop (insert - also failing ones -, remove, enable, disable, update,
   set_interest, set_deadline, into_inner, dropping dispatchers, pings, sends, idles ...) leaves a state in which the next
   dispatch goes through both lifecycle loops without reaching unreachable!() *)
Theorem lifecycle_loops_safe acts bscr : let s := exec_actions init acts in
  snd (before_sleep_loop bscr s (lifecycle s)) <> BSPanic /\
  forall e2 line polled, let s1 := fst (before_sleep_loop bscr s (lifecycle s)) in
    snd (before_handle_loop (emit (set_en s1 e2) line) (lifecycle (emit (set_en s1 e2) line)) polled) = true.
Proof.
  cbv zeta. apply LI_loops_safe. apply (INV_exec_actions acts init INV_init).
Qed.
