(* What an action is made of. Every LoopHandle operation, ping, send and idle request of the model (exec_action) is a short sequence
   of primitive writes: the `astep`s below, indexed by the action so that a write says which actions perform it (only insert
   allocates a slot, only update and disable defer, what is (re)registered is the action's own handle's object ...).
   exec_action_astar proves that once; a fact about all actions that is a reflexive, transitive relation between states then needs
   one line per kind of write (star_incl), not a case analysis of exec_action. *)
From CV Require Import Base Token Env Loop.
From CVP Require Import Loop_frames.
Open Scope N_scope.

Inductive star (step : st -> st -> Prop) : st -> st -> Prop :=
| star_refl s : star step s s
| star_cons a b c : step a b -> star step b c -> star step a c.

Lemma star_one (step : st -> st -> Prop) a b : step a b -> star step a b.
Proof. intros H. eapply star_cons; [exact H|apply star_refl]. Qed.
Lemma star_trans (step : st -> st -> Prop) a b c : star step a b -> star step b c -> star step a c.
Proof. induction 1; intros H2; [exact H2|]. eapply star_cons; [eassumption|]. apply IHstar. exact H2. Qed.
Lemma star_snoc (step : st -> st -> Prop) a b c : star step a b -> step b c -> star step a c.
Proof. intros H1 H2. eapply star_trans; [exact H1|apply star_one; exact H2]. Qed.
Lemma star_incl (R step : st -> st -> Prop) :
  (forall s, R s s) -> (forall a b c, R a b -> R b c -> R a c) -> (forall a b, step a b -> R a b) ->
  forall a b, star step a b -> R a b.
Proof. intros Rr Rt Rs a b H. induction H; [apply Rr|]. eapply Rt; [apply Rs; eassumption|exact IHstar]. Qed.
Lemma star_lift (step step' : st -> st -> Prop) : (forall a b, step a b -> step' a b) -> forall a b, star step a b -> star step' a b.
Proof. intros H. apply star_incl; [apply star_refl|apply star_trans|]. intros a b S. apply star_one. apply H. exact S. Qed.

(* what happens to the environment alone: eventfd traffic, ping handles, channel ends *)
Inductive envop : env -> env -> Prop :=
| eo_write e fd v : envop e (fd_write e fd v)
| eo_read e fd : envop e (fst (fd_read e fd))
| eo_pop e c ch q :
    envop e (set_chans e (fupd (chans e) c (Some (mkChan q (ch_senders ch) (ch_bound ch) (ch_rx_alive ch) (ch_pfd ch)))))
| eo_ping e p : envop e (do_ping e p)
| eo_clonep e p : envop e (do_clonep e p)
| eo_dropp e p : envop e (do_dropp e p)
| eo_send e c v : envop e (fst (env_send e c v))
| eo_dropsender e c : envop e (do_dropsender e c)
| eo_clonesender e c : envop e (do_clonesender e c)
| eo_newping e p fd : envop e (set_pings e (fupd (pings e) p (Some (fd, 1))))
| eo_newchan e c fd b : envop e (set_chans e (fupd (chans e) c (Some (mkChan [] 1 b true fd)))).

(* what Timer::process_events and set_deadline write: the deadline only *)
Definition src_set_dl (x : src) (dl : option Z) : src :=
  match x with
  | STimer t => STimer (mkTimer (tm_reg t) dl (tm_en t))
  | SComp lc own subs (Some t) => SComp lc own subs (Some (mkTimer (tm_reg t) dl (tm_en t)))
  | _ => x
  end.

(* which actions may do what: only update and disable defer a request to the end of the running source's processing, only insert
   allocates a slot (and rolls that back), only remove vacates one, and the object an action (re)registers is its own handle's *)
Definition defers (a : action) : bool := match a with AUpdate _ | ADisable _ => true | _ => false end.
Definition is_insert (a : action) : bool := match a with AInsert _ _ => true | _ => false end.
Definition is_remove (a : action) : bool := match a with ARemove _ => true | _ => false end.
Definition registers (a : action) (s : st) (o : N) : Prop :=
  match a with
  | AInsert h _ => o = h
  | AEnable h | AUpdate h => exists t et, lookup s h = Some (t, et, o)
  | _ => False
  end.

Inductive astep (a : action) : st -> st -> Prop :=
| as_env s e' : envop (en s) e' -> astep a s (set_en s e')
| as_emit s args : astep a s (emit s (L T_OP args))
| as_panic s k : astep a s (panic s k)
| as_new s h x : a = AInsert h x -> objs s h = None -> astep a s (set_objs s (fupd (objs s) h (Some (mkObj x true))))
| as_alloc s i sl e h : is_insert a = true -> vacant_entry (slots s) = Some (i, sl) -> nth_error sl i = Some e ->
    astep a s (set_slots s (upd sl i (mkSlot (s_tok e) (Some h) (s_gen e))))
| as_unalloc s i t h g : is_insert a = true -> nth_error (slots s) i = Some (mkSlot t (Some h) g) ->
    astep a s (set_slots s (upd (slots s) i (mkSlot t None g)))
(* a handle gets the token of the slot that holds it *)
| as_toks s i t h g : nth_error (slots s) i = Some (mkSlot t (Some h) g) -> astep a s (set_toks s (fupd (toks s) h (Some t)))
| as_register s o t : registers a s o -> astep a s (snd (disp_register s o t))
| as_reregister s o t : registers a s o -> astep a s (snd (disp_reregister s o t))
| as_unregister s o t : astep a s (snd (disp_unregister s o t))
(* a request is only deferred from inside a callback *)
| as_pending s p : defers a = true -> running s <> None -> astep a s (set_pending s p)
| as_vacate s t : is_remove a = true -> astep a s (set_slots s (slot_set_obj (slots s) t None))
| as_drop s o : astep a s (maybe_drop s o)
| as_setint s h ob lc own subs tmr j it m : objs s h = Some ob -> is_running s h = false -> o_src ob = SComp lc own subs tmr ->
    astep a s (set_obj_src s h (SComp lc own (set_nth_gen subs j it m) tmr))
| as_setdl s h ob dl : objs s h = Some ob -> is_running s h = false -> astep a s (set_obj_src s h (src_set_dl (o_src ob) (Some dl)))
| as_dropobj s h ob : objs s h = Some ob -> is_running s h = false -> astep a s (drop_obj s h ob)
| as_unext s h ob : objs s h = Some ob -> astep a s (set_objs s (fupd (objs s) h (Some (mkObj (o_src ob) false))))
| as_idle s i : a = AIdle i -> astep a s (do_idle s i)
| as_cancel s i : astep a s (set_idle_cancelled s (fupd (idle_cancelled s) i true)).

Lemma do_insert_astar s h x : star (astep (AInsert h x)) s (do_insert s h x).
Proof.
  unfold do_insert. destruct (objs s h) eqn:Eh; [apply star_one, as_emit|].
  eapply star_cons; [apply (as_new (AInsert h x) s h x eq_refl Eh)|]. set (s0 := set_objs s _).
  destruct (vacant_entry (slots s0)) as [[i sl]|] eqn:Ev; [|apply star_one, as_panic].
  destruct (nth_error sl i) as [e|] eqn:He; [|apply star_one, as_panic].
  eapply star_cons; [apply (as_alloc (AInsert h x) s0 i sl e h eq_refl Ev He)|]. set (s1 := set_slots s0 _).
  pose proof (as_register (AInsert h x) s1 h (s_tok e) eq_refl) as R. pose proof (slots_disp_register s1 h (s_tok e)) as FS.
  destruct (disp_register s1 h (s_tok e)) as [r s2]. cbn [snd] in R, FS. eapply star_cons; [exact R|].
  destruct (halted s2); [apply star_refl|].
  assert (Hn : nth_error (slots s2) i = Some (mkSlot (s_tok e) (Some h) (s_gen e))).
  { rewrite FS. apply nth_error_upd_same. apply nth_error_Some. congruence. }
  destruct r; [eapply star_cons; [apply (as_toks (AInsert h x) s2 i _ h _ Hn)|apply star_one, as_emit]|..];
    (eapply star_cons; [apply (as_unalloc (AInsert h x) s2 i _ h _ eq_refl Hn)|apply star_one, as_emit]).
Qed.

Lemma do_remove_astar s h : star (astep (ARemove h)) s (do_remove s h).
Proof.
  unfold do_remove. destruct (lookup s h) as [[[t et] o]|]; [|apply star_one, as_emit].
  eapply star_cons; [apply (as_vacate (ARemove h) s t eq_refl)|].
  match goal with |- context [disp_unregister ?x o t] => pose proof (as_unregister (ARemove h) x o t) as U; destruct (disp_unregister x o t) as [[r d] s2] end.
  eapply star_cons; [exact U|]. eapply star_cons; [apply as_drop|apply star_one, as_emit].
Qed.

Lemma exec_action_astar s a : star (astep a) s (exec_action s a).
Proof.
  unfold exec_action. destruct (halted s); [apply star_refl|].
  destruct a as [h x|h|h|h|h|h j it m|h dl|h|h|fd v|fd|p|p|p|c v|c v|c|c|i|i|p fd|c fd b|];
    try (apply star_one, as_env; constructor).
  - apply do_insert_astar.
  - apply do_remove_astar.
  - unfold do_disable. destruct (lookup s h) as [[[t et] o]|]; [|apply star_one, as_emit].
    pose proof (as_unregister (ADisable h) s o t) as U. pose proof (disp_unregister_done s o t) as D. pose proof (running_disp_unregister s o t) as FR.
    destruct (disp_unregister s o t) as [[r d] s1]. cbn [fst snd] in *. eapply star_cons; [exact U|].
    destruct r; try apply star_one, as_emit. destruct d; [apply star_one, as_emit|].
    eapply star_cons; [apply as_pending; [reflexivity|]|apply star_one, as_emit]. intros E. rewrite FR in E. specialize (D E). discriminate.
  - unfold do_enable. destruct (lookup s h) as [[[t et] o]|] eqn:El; [|apply star_one, as_emit].
    pose proof (as_register (AEnable h) s o et (ex_intro _ t (ex_intro _ et El))) as R. destruct (disp_register s o et) as [r s1]. cbn [snd] in R.
    destruct (halted s1); [apply star_one; exact R|]. eapply star_cons; [exact R|apply star_one, as_emit].
  - unfold do_update. destruct (lookup s h) as [[[t et] o]|] eqn:El; [|apply star_one, as_emit].
    pose proof (as_reregister (AUpdate h) s o et (ex_intro _ t (ex_intro _ et El))) as U. pose proof (disp_reregister_done s o et) as D.
    pose proof (running_disp_reregister s o et) as FR.
    destruct (disp_reregister s o et) as [[r d] s1]. cbn [fst snd] in *. destruct (halted s1); [apply star_one; exact U|].
    eapply star_cons; [exact U|]. destruct r; try apply star_one, as_emit. destruct d; [apply star_one, as_emit|].
    eapply star_cons; [apply as_pending; [reflexivity|]|apply star_one, as_emit]. intros E. rewrite FR in E. specialize (D E). discriminate.
  - unfold do_setint. destruct (objs s h) as [ob|] eqn:Eo; [|apply star_one, as_emit]. destruct (negb (o_ext ob)); [apply star_one, as_emit|].
    destruct (is_running s h) eqn:Er; [apply star_one, as_panic|]. destruct (o_src ob) as [lc own subs tmr|g|tm|c g] eqn:Es; try apply star_one, as_emit.
    eapply star_cons; [eapply as_setint; eassumption|apply star_one, as_emit].
  - unfold do_setdl. destruct (objs s h) as [ob|] eqn:Eo; [|apply star_one, as_emit]. destruct (negb (o_ext ob)); [apply star_one, as_emit|].
    destruct (is_running s h) eqn:Er; [apply star_one, as_panic|].
    pose proof (as_setdl (ASetDl h dl) s h ob dl Eo Er) as S. destruct (o_src ob) as [lc own subs [tm|]|g|tm|c g]; try apply star_one, as_emit;
      (eapply star_cons; [exact S|apply star_one, as_emit]).
  - unfold do_intoinner. destruct (objs s h) as [ob|] eqn:Eo; [|apply star_one, as_emit]. destruct (negb (o_ext ob)); [apply star_one, as_emit|].
    destruct (in_slots (slots s) h || is_running s h) eqn:E; [apply star_one, as_panic|]. apply orb_false_iff in E as [E1 E2].
    eapply star_cons; [apply (as_dropobj _ s h ob Eo E2)|apply star_one, as_emit].
  - unfold do_dropdisp. destruct (objs s h) as [ob|] eqn:Eo; [|apply star_one, as_emit]. destruct (negb (o_ext ob)); [apply star_one, as_emit|].
    eapply star_cons; [apply (as_unext _ s h ob Eo)|]. eapply star_cons; [apply as_drop|apply star_one, as_emit].
  - unfold do_send. pose proof (as_env (ASend c v) s _ (eo_send (en s) c v)) as S. destruct (env_send (en s) c v) as [e' [rc|]]; cbn [fst] in S;
      [eapply star_cons; [exact S|apply star_one, as_emit]|apply star_one; exact S].
  - unfold do_send. pose proof (as_env (ATrySend c v) s _ (eo_send (en s) c v)) as S. destruct (env_send (en s) c v) as [e' [rc|]]; cbn [fst] in S;
      [eapply star_cons; [exact S|apply star_one, as_emit]|apply star_one; exact S].
  - apply star_one, as_idle. reflexivity.
  - unfold do_cancelidle. destruct (match ridle s with Some r => r =? i | None => false end); [apply star_one, as_panic|apply star_one, as_cancel].
  - apply star_refl.
Qed.

(* ---------- `running` is only written by process_event, and outside event processing no action defers ---------- *)
Lemma astep_running a s s' : astep a s s' -> running s' = running s.
Proof.
  destruct 1; try reflexivity; [apply running_disp_register|apply running_disp_reregister|apply running_disp_unregister|
    apply running_maybe_drop|apply running_set_obj_src|apply running_set_obj_src].
Qed.
Lemma astar_running a s s' : star (astep a) s s' -> running s' = running s.
Proof. apply (star_incl (fun a b => running b = running a) (astep a)); [reflexivity|intros; congruence|apply astep_running]. Qed.
Lemma running_exec_action s a : running (exec_action s a) = running s.
Proof. apply (astar_running _ _ _ (exec_action_astar s a)). Qed.

(* so star_incl need only look at writes that leave a state whose `running` satisfies P: that nothing runs (P r := r = None), or that a
   given object does *)
Lemma astar_incl act (P : option (N * tok) -> Prop) (R : st -> st -> Prop) :
  (forall s, R s s) -> (forall a b c, R a b -> R b c -> R a c) -> (forall a b, astep act a b -> P (running a) -> R a b) ->
  forall a b, star (astep act) a b -> P (running a) -> R a b.
Proof.
  intros Rr Rt Rs a b S. induction S as [x|x y z St _ IH]; intros Hx; [apply Rr|].
  apply (Rt x y z); [apply Rs; assumption|]. apply IH. rewrite (astep_running _ _ _ St). exact Hx.
Qed.

Lemma astep_pending a s s' : astep a s s' -> defers a = false \/ running s = None -> pending s' = pending s.
Proof.
  destruct 1; intros Hr; try reflexivity; [apply pending_disp_register|apply pending_disp_reregister|apply pending_disp_unregister|
    destruct Hr; congruence|apply pending_maybe_drop|apply pending_set_obj_src|apply pending_set_obj_src].
Qed.
Lemma pending_exec_action s a : running s = None -> pending (exec_action s a) = pending s.
Proof.
  apply (astar_incl a (fun r => r = None) (fun a b => pending b = pending a)); [reflexivity|intros; congruence|intros; eapply astep_pending; eauto|apply exec_action_astar].
Qed.

(* ... and only update() and disable() ever record a deferred action *)
Lemma pending_exec_action_other s a :
  (forall h, a <> AUpdate h) -> (forall h, a <> ADisable h) -> pending (exec_action s a) = pending s.
Proof.
  intros NU ND. assert (E : defers a = false) by (destruct a; try reflexivity; [exfalso; eapply ND|exfalso; eapply NU]; reflexivity).
  apply (star_incl (fun x y => pending y = pending x) (astep a)); [reflexivity|intros; congruence| |apply exec_action_astar].
  intros x y S. apply (astep_pending a x y S). left. exact E.
Qed.
