(* Step-level lemmas about the sequential loop model (Loop.v) used by several properties. *)
From CV Require Import Base Consts Token PostAction Env Loop.
From CVP Require Import Loop_frames Loop_actions Env_lemmas.
Open Scope N_scope.

Lemma tok_eqb_eq a b : tok_eqb a b = true <-> a = b.
Proof.
  unfold tok_eqb. destruct a as [i v s], b as [i' v' s']; cbn. split.
  - intros H. apply andb_prop in H as [H H3]. apply andb_prop in H as [H1 H2].
    apply N.eqb_eq in H1, H2, H3. congruence.
  - intros [= -> -> ->]. rewrite !N.eqb_refl. reflexivity.
Qed.
Lemma tok_eqb_refl a : tok_eqb a a = true. Proof. apply tok_eqb_eq; reflexivity. Qed.

(* ---------- the lifecycle set stays duplicate-free (C14) ---------- *)
Lemma existsb_tok_in t l : existsb (tok_eqb t) l = true <-> In t l.
Proof.
  rewrite existsb_exists. split.
  - intros [x [Hin He]]. apply tok_eqb_eq in He. subst. exact Hin.
  - intros H. exists t. split; [exact H|apply tok_eqb_refl].
Qed.
Lemma lc_register_nodup l t : NoDup l -> NoDup (lc_register l t).
Proof.
  intros H. unfold lc_register. destruct (existsb (tok_eqb t) l) eqn:E; [exact H|].
  assert (Hn : ~ In t l) by (intros Hin; apply existsb_tok_in in Hin; congruence).
  clear E. induction l as [|x r IH]; cbn.
  - constructor; [intros []|constructor].
  - inversion H as [|? ? Hx Hr]; subst. constructor.
    + intros Hin. apply in_app_or in Hin as [Hin|[<-|[]]]; [contradiction|apply Hn; left; reflexivity].
    + apply IH; [exact Hr|intros Hin; apply Hn; right; exact Hin].
Qed.
Lemma lc_register_in l t : In t (lc_register l t).
Proof.
  unfold lc_register. destruct (existsb (tok_eqb t) l) eqn:E; [apply existsb_tok_in; exact E|].
  apply in_or_app. right. left. reflexivity.
Qed.
Lemma lc_unregister_nodup l t : NoDup l -> NoDup (lc_unregister l t).
Proof. intros H. unfold lc_unregister. apply NoDup_filter. exact H. Qed.
Lemma lc_unregister_not_in l t : ~ In t (lc_unregister l t).
Proof. unfold lc_unregister. rewrite filter_In. intros [_ H]. rewrite tok_eqb_refl in H. discriminate. Qed.
Lemma lc_unregister_other l t x : x <> t -> In x l -> In x (lc_unregister l t).
Proof.
  intros Hne Hin. unfold lc_unregister. rewrite filter_In. split; [exact Hin|].
  destruct (tok_eqb x t) eqn:E; [apply tok_eqb_eq in E; contradiction|reflexivity].
Qed.

(* ---------- token check: a source only reacts to events carrying one of its own tokens (C01, C07) ---------- *)
Definition src_has_tok (x : src) (t : tok) : bool :=
  match x with
  | SComp _ own subs tmr =>
      opt_tok_is own t || existsb (fun g => opt_tok_is (g_tok g) t) subs ||
      match tmr with Some tm => match tm_reg tm with Some (tk, _) => tok_eqb tk t | None => false end | None => false end
  | SPing g => opt_tok_is (g_tok g) t
  | SChan _ g => opt_tok_is (g_tok g) t
  | STimer tm => match tm_reg tm with Some (tk, _) => tok_eqb tk t | None => false end
  end.
(* a source without any registration token: unregistered / disabled *)
Definition src_silent (x : src) : Prop := forall t, src_has_tok x t = false.

Lemma find_sub_none subs t : forall j, existsb (fun g => opt_tok_is (g_tok g) t) subs = false -> find_sub subs t j = None.
Proof.
  induction subs as [|g r IH]; intros j H; cbn in *; [reflexivity|].
  apply orb_false_iff in H as [H1 H2]. rewrite H1. apply IH. exact H2.
Qed.

(* an event whose token the source does not hold reaches no callback; the one thing that may happen is Channel's self-ping:
   its readiness was not cleared, because its closure never ran *)
Lemma obj_process_foreign scr s o ob ev :
  objs s o = Some ob -> src_has_tok (o_src ob) (unpack (ev_key ev)) = false ->
  snd (obj_process scr s o ev) = Some Continue /\
  (fst (obj_process scr s o ev) = s \/ exists fd, fst (obj_process scr s o ev) = eenv s (fun e => fd_write e fd INCREMENT_PING)).
Proof.
  intros Ho Ht. unfold obj_process. rewrite Ho. destruct (o_src ob) as [lc own subs tmr|g|tm|c g]; cbn in Ht.
  - apply orb_false_iff in Ht as [Ht H3]. apply orb_false_iff in Ht as [H1 H2]. rewrite H1, (find_sub_none subs _ 1%nat H2).
    destruct tmr as [tm|]; [|split; [|left]; reflexivity]. unfold timer_sub_fire.
    destruct (tm_reg tm) as [[tk c]|]; [|split; [|left]; reflexivity]. destruct (tm_dl tm); [|split; [|left]; reflexivity].
    rewrite H3. split; [|left]; reflexivity.
  - unfold ping_drain. rewrite Ht. split; [|left]; reflexivity.
  - destruct (tm_reg tm) as [[tk c]|]; [|split; [|left]; reflexivity]. destruct (tm_dl tm); [|split; [|left]; reflexivity].
    rewrite Ht. split; [|left]; reflexivity.
  - unfold ping_drain. rewrite Ht. cbn. split; [reflexivity|right]. eexists. reflexivity.
Qed.
Lemma obj_process_no_token scr s o ob ev :
  objs s o = Some ob -> src_has_tok (o_src ob) (unpack (ev_key ev)) = false ->
  log (fst (obj_process scr s o ev)) = log s /\ snd (obj_process scr s o ev) = Some Continue.
Proof. intros Ho Ht. destruct (obj_process_foreign scr s o ob ev Ho Ht) as [R [->|[fd ->]]]; split; try exact R; reflexivity. Qed.

(* a successful unregister leaves the source without tokens *)
Lemma subs_unregister_silent subs : forall e subs' e',
  subs_unregister e subs = (true, subs', e') -> forall t, existsb (fun g => opt_tok_is (g_tok g) t) subs' = false.
Proof.
  induction subs as [|g r IH]; intros e subs' e' H t; cbn in H.
  - injection H as <- <-. reflexivity.
  - unfold gen_unregister in H. destruct (ep_del (epoll e) (g_fd g)) as [tbl|]; [|discriminate].
    destruct (subs_unregister _ r) as [[ok r'] e''] eqn:E. injection H as -> <- <-.
    cbn. apply (IH _ _ _ E).
Qed.

Lemma src_unregister_silent e x x' e' : src_unregister e x = (true, x', e') -> src_silent x'.
Proof.
  intros H t. destruct x as [lc own subs tmr|g|tm|c g]; cbn in H.
  - destruct (subs_unregister e subs) as [[ok subs'] e''] eqn:E. destruct ok; [|destruct tmr; discriminate].
    destruct tmr as [tm|].
    + unfold timer_unregister in H. destruct (tm_reg tm) as [[tk c]|]; injection H as <- <-; cbn;
        rewrite (subs_unregister_silent _ _ _ _ E); reflexivity.
    + injection H as <- <-. cbn. rewrite (subs_unregister_silent _ _ _ _ E). reflexivity.
  - unfold gen_unregister in H. destruct (ep_del _ _); [|discriminate]. injection H as <- <-. reflexivity.
  - unfold timer_unregister in H. destruct (tm_reg tm) as [[tk c]|]; injection H as <- <-; reflexivity.
  - unfold gen_unregister in H. destruct (ep_del _ _); [|discriminate]. injection H as <- <-. reflexivity.
Qed.

(* a completed disable (or a processed PostAction::Disable): from that state on every event aimed at the source
   is ignored - no callback, whatever token the event carries - even one already collected in the current batch *)
Lemma disp_unregister_silences scr s o t s' :
  disp_unregister s o t = (ROk, true, s') -> is_running s o = false ->
  exists ob', objs s' o = Some ob' /\ src_silent (o_src ob') /\
              forall ev, log (fst (obj_process scr s' o ev)) = log s' /\ snd (obj_process scr s' o ev) = Some Continue.
Proof.
  intros H Hr. unfold disp_unregister in H. destruct (objs s o) as [ob|] eqn:Eo; [|discriminate].
  rewrite Hr in H. destruct (src_unregister (en s) (o_src ob)) as [[ok x'] e1] eqn:Eu.
  destruct ok; [|discriminate]. injection H as <-.
  pose proof (src_unregister_silent _ _ _ _ Eu) as Hs.
  assert (Ho : objs (if src_lc x'
                     then set_lifecycle (regop (set_obj_src (set_en s e1) o x') o x' 2%Z true)
                            (lc_unregister (lifecycle (regop (set_obj_src (set_en s e1) o x') o x' 2%Z true)) t)
                     else regop (set_obj_src (set_en s e1) o x') o x' 2%Z true) o = Some (mkObj x' (o_ext ob))).
  { destruct (src_lc x'); cbn; rewrite objs_regop; unfold set_obj_src; cbn; rewrite Eo; cbn; unfold fupd; rewrite N.eqb_refl; reflexivity. }
  eexists. split; [exact Ho|]. split; [exact Hs|].
  intros ev. eapply obj_process_no_token; [exact Ho|apply Hs].
Qed.

(* ---------- removal: the token of a removed source no longer resolves (C06) ---------- *)
Lemma slot_get_set_none l t : slot_get (slot_set_obj l t None) t = None \/
  exists sl, slot_get (slot_set_obj l t None) t = Some sl /\ s_obj sl = None.
Proof.
  unfold slot_set_obj, slot_get. destruct (nth_error l (N.to_nat (t_id t))) as [sl|] eqn:E.
  - rewrite nth_error_upd_same by (apply nth_error_Some; congruence). cbn.
    destruct (same_source_as (s_tok sl) t); [right; eexists; split; reflexivity|left; reflexivity].
  - rewrite E. left; reflexivity.
Qed.

Lemma lookup_after_remove s h : halted s = false -> lookup (exec_action s (ARemove h)) h = None.
Proof.
  intros Hh. unfold exec_action. rewrite Hh. unfold do_remove.
  destruct (lookup s h) as [[[t et] o]|] eqn:El; [|cbn; unfold lookup in *; cbn; exact El].
  destruct (disp_unregister _ o t) as [[r d] s2] eqn:Eu.
  pose proof (slots_disp_unregister (set_slots s (slot_set_obj (slots s) t None)) o t) as S2.
  pose proof (toks_disp_unregister (set_slots s (slot_set_obj (slots s) t None)) o t) as T2.
  rewrite Eu in S2, T2. cbn in S2, T2.
  unfold lookup. cbn. rewrite toks_maybe_drop, slots_maybe_drop, T2, S2.
  unfold lookup in El. destruct (toks s h) as [t'|]; [|discriminate].
  destruct (slot_get (slots s) t') as [sl|]; [|discriminate]. destruct (s_obj sl); [|discriminate].
  injection El as -> _ _.
  destruct (slot_get_set_none (slots s) t) as [->|[sl' [-> ->]]]; reflexivity.
Qed.

(* operations with a token that does not resolve change nothing but the log: InvalidToken, no other source touched *)
Lemma invalid_token_noop s h : halted s = false -> lookup s h = None ->
  exec_action s (AEnable h) = emit s (op_line OP_ENABLE h RInvalid) /\
  exec_action s (ADisable h) = emit s (op_line OP_DISABLE h RInvalid) /\
  exec_action s (AUpdate h) = emit s (op_line OP_UPDATE h RInvalid) /\
  exec_action s (ARemove h) = emit s (op_line OP_REMOVE h ROk).
Proof.
  intros Hh Hl. unfold exec_action, do_enable, do_disable, do_update, do_remove. rewrite Hh, Hl. repeat split.
Qed.

(* ---------- failed registration leaves the lifecycle set alone (C15) ---------- *)
Lemma lifecycle_set_obj_src s o x : lifecycle (set_obj_src s o x) = lifecycle s.
Proof. unfold set_obj_src; dmatch; reflexivity. Qed.
Lemma disp_register_fail_lifecycle s o t r s' :
  disp_register s o t = (r, s') -> r <> ROk -> lifecycle s' = lifecycle s.
Proof.
  unfold disp_register. intros H Hr. dmatch_in H; injection H as <- <-; cbn;
    rewrite ?lifecycle_regop, ?lifecycle_set_obj_src; try reflexivity; congruence.
Qed.

(* ---------- idles: the queue only grows while callbacks run (C13) ---------- *)
Lemma idles_set_obj_src s o x : idles (set_obj_src s o x) = idles s.
Proof. unfold set_obj_src; dmatch; reflexivity. Qed.
Lemma idles_disp_register s o t : idles (snd (disp_register s o t)) = idles s.
Proof. unfold disp_register; dmatch; cbn; unfold regop; dmatch; cbn; rewrite ?idles_set_obj_src; reflexivity. Qed.
Lemma idles_disp_reregister s o t : idles (snd (disp_reregister s o t)) = idles s.
Proof. unfold disp_reregister; dmatch; cbn; unfold regop; dmatch; cbn; rewrite ?idles_set_obj_src; reflexivity. Qed.
Lemma idles_disp_unregister s o t : idles (snd (disp_unregister s o t)) = idles s.
Proof. unfold disp_unregister; dmatch; cbn; unfold regop; dmatch; cbn; rewrite ?idles_set_obj_src; reflexivity. Qed.
Lemma idles_maybe_drop s o : idles (maybe_drop s o) = idles s.
Proof. unfold maybe_drop, drop_obj; dmatch; reflexivity. Qed.

Lemma astep_idles a s s' : astep a s s' -> (forall i, a <> AIdle i) -> idles s' = idles s.
Proof.
  destruct 1 as [| | | | | | | | | | | | | | | | |s i Ea|]; intros Hn; try reflexivity;
    [apply idles_disp_register|apply idles_disp_reregister|apply idles_disp_unregister|apply idles_maybe_drop|
     apply idles_set_obj_src|apply idles_set_obj_src|destruct (Hn i Ea)].
Qed.
Lemma idles_exec_action_other s a : (forall i, a <> AIdle i) -> idles (exec_action s a) = idles s.
Proof.
  intros Hn. apply (star_incl (fun x y => idles y = idles x) (astep a)); [reflexivity|intros; congruence| |apply exec_action_astar].
  intros x y S. exact (astep_idles a x y S Hn).
Qed.
Lemma idles_exec_action s a :
  idles (exec_action s a) = idles s \/ exists i, a = AIdle i /\ idles (exec_action s a) = idles s ++ [i].
Proof.
  destruct a; try (left; apply idles_exec_action_other; intros i0; discriminate).
  unfold exec_action. destruct (halted s); [left; reflexivity|right; eexists; split; reflexivity].
Qed.

(* ---------- one Generic against the poller: a failed call changes nothing, a successful one exactly its fd (C15, C16) ---------- *)
Lemma gen_register_fail e g t g' e' : gen_register e g t = (false, g', e') -> g' = g /\ e' = e.
Proof. unfold gen_register. destruct (ep_add _ _ _ _ _ _); [discriminate|]. intros [= <- <-]. split; reflexivity. Qed.
Lemma gen_reregister_fail e g t g' e' : gen_reregister e g t = (false, g', e') -> g' = g /\ e' = e.
Proof. unfold gen_reregister. destruct (ep_mod _ _ _ _ _ _); [discriminate|]. intros [= <- <-]. split; reflexivity. Qed.
Lemma gen_unregister_fail e g g' e' : gen_unregister e g = (false, g', e') -> g' = g /\ e' = e.
Proof. unfold gen_unregister. destruct (ep_del _ _); [discriminate|]. intros [= <- <-]. split; reflexivity. Qed.

Lemma gen_register_ok e g t g' e' : gen_register e g t = (true, g', e') ->
  ep_find (epoll e) (g_fd g) = None /\
  (exists q, ep_find (epoll e') (g_fd g) = Some (mkEp (g_fd g) (g_int g) (g_mode g) (pack t) q)) /\
  (forall fd', fd' <> g_fd g -> ep_find (epoll e') fd' = ep_find (epoll e) fd') /\
  g_tok g' = Some t /\ g_poller g' = true.
Proof.
  unfold gen_register. pose proof (ep_add_spec (epoll e) (g_fd g) (g_int g) (g_mode g) (pack t) (fdc e (g_fd g))) as S.
  destruct (ep_add _ _ _ _ _ _) as [tbl|]; [|discriminate]. intros [= <- <-]. cbn.
  destruct S as (A & B & C). repeat split; assumption.
Qed.
Lemma gen_unregister_ok e g g' e' : gen_unregister e g = (true, g', e') ->
  ep_find (epoll e') (g_fd g) = None /\ (forall fd', fd' <> g_fd g -> ep_find (epoll e') fd' = ep_find (epoll e) fd') /\
  g_tok g' = None /\ g_poller g' = false.
Proof.
  unfold gen_unregister. destruct (ep_del (epoll e) (g_fd g)) as [tbl|] eqn:E; [|discriminate]. intros [= <- <-]. cbn.
  destruct (ep_del_spec _ _ _ E) as [A B]. repeat split; assumption.
Qed.
(* Drop of a Generic that records a poller deletes its fd, whether or not the table had it, and touches nothing else: nothing stale
   stays behind *)
Lemma gen_drop_spec e g : g_poller g = true ->
  ep_find (epoll (gen_drop e g)) (g_fd g) = None /\
  forall fd', fd' <> g_fd g -> ep_find (epoll (gen_drop e g)) fd' = ep_find (epoll e) fd'.
Proof.
  intros P. unfold gen_drop. rewrite P. destruct (ep_del (epoll e) (g_fd g)) as [tbl|] eqn:Ed; [exact (ep_del_spec _ _ _ Ed)|].
  split; [|reflexivity]. unfold ep_del in Ed. destruct (ep_find (epoll e) (g_fd g)); [discriminate|reflexivity].
Qed.
Lemma gen_drop_clears e g : g_poller g = true -> ep_find (epoll (gen_drop e g)) (g_fd g) = None.
Proof. intros P. apply gen_drop_spec. exact P. Qed.

(* ---------- unregister always drops the lifecycle entry of a lifecycle source, whatever the source answered (C14) ---------- *)
Lemma disp_unregister_drops_lifecycle s o t r s' ob :
  objs s o = Some ob -> src_lc (o_src ob) = true -> disp_unregister s o t = (r, true, s') -> is_running s o = false ->
  ~ In t (lifecycle s').
Proof.
  intros Eo Hlc H Hr. unfold disp_unregister in H. rewrite Eo, Hr in H.
  destruct (src_unregister (en s) (o_src ob)) as [[ok x'] e1] eqn:Eu.
  assert (Hlc' : src_lc x' = true).
  { destruct (o_src ob); cbn in Eu, Hlc; try discriminate.
    destruct (subs_unregister _ _) as [[a b] c]. destruct a; [destruct tmr as [tm|]; [destruct (timer_unregister c tm)|]|];
      injection Eu as _ <- _; exact Hlc. }
  rewrite Hlc' in H. injection H as _ <-. cbn. apply lc_unregister_not_in.
Qed.
