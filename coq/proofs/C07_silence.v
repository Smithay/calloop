(* C07, whole histories: a source that holds no registration token (disabled / unregistered) runs no callback and keeps holding
   no token, whatever else happens - other sources' events and callbacks, removals, slot reuse, set_interest / set_deadline on
   it, dispatches, idles - until an action names its own handle in insert / enable / update. *)
From CV Require Import Base Token PostAction Env Loop.
From CVP Require Import Loop_frames Loop_walk Seq_lemmas C06_proofs C01_attr C09_proofs C06_handles.
Open Scope N_scope.

(* ---------- "holds no token", as a boolean ---------- *)
Definition gen_notok (g : gen) : bool := match g_tok g with None => true | Some _ => false end.
Definition tm_notok (t : timer) : bool := match tm_reg t with None => true | Some _ => false end.
Definition src_notok (x : src) : bool :=
  match x with
  | SComp _ own subs tmr => match own with None => true | Some _ => false end && forallb gen_notok subs &&
                            match tmr with Some tm => tm_notok tm | None => true end
  | SPing g => gen_notok g
  | SChan _ g => gen_notok g
  | STimer tm => tm_notok tm
  end.
Lemma notok_silent x : src_notok x = true -> src_silent x.
Proof.
  intros H t. destruct x as [lc own subs tmr|g|tm|c g]; cbn in *.
  - apply andb_prop in H. destruct H as [H Ht]. apply andb_prop in H. destruct H as [Ho Hs].
    destruct own; [discriminate|]. cbn [opt_tok_is orb].
    assert (E : existsb (fun g => opt_tok_is (g_tok g) t) subs = false).
    { clear -Hs. induction subs as [|g r IH]; cbn in *; [reflexivity|]. apply andb_prop in Hs. destruct Hs as [Hg Hr].
      unfold gen_notok in Hg. destruct (g_tok g); [discriminate|]. cbn. apply IH. exact Hr. }
    rewrite E. cbn. destruct tmr as [tm|]; [|reflexivity]. unfold tm_notok in Ht. destruct (tm_reg tm); [discriminate|reflexivity].
  - unfold gen_notok in H. destruct (g_tok g); [discriminate|reflexivity].
  - unfold tm_notok in H. destruct (tm_reg tm); [discriminate|reflexivity].
  - unfold gen_notok in H. destruct (g_tok g); [discriminate|reflexivity].
Qed.
Lemma silent_notok x : src_silent x -> src_notok x = true.
Proof.
  intros H. destruct x as [lc own subs tmr|g|tm|c g]; cbn.
  - assert (Ho : own = None).
    { destruct own as [tk|]; [|reflexivity]. specialize (H tk). cbn in H. rewrite tok_eqb_refl in H. discriminate. }
    subst own. cbn.
    assert (Hs : forallb gen_notok subs = true).
    { apply forallb_forall. intros g Hg. unfold gen_notok. destruct (g_tok g) as [tk|] eqn:E; [|reflexivity].
      specialize (H tk). cbn in H. apply orb_false_iff in H. destruct H as [H _].
      assert (X : existsb (fun g0 => opt_tok_is (g_tok g0) tk) subs = true).
      { apply existsb_exists. exists g. split; [exact Hg|]. rewrite E. cbn. apply tok_eqb_refl. }
      rewrite X in H. discriminate. }
    rewrite Hs. cbn. destruct tmr as [tm|]; [|reflexivity]. unfold tm_notok. destruct (tm_reg tm) as [[tk c]|] eqn:E; [|reflexivity].
    specialize (H tk). cbn in H. rewrite E, tok_eqb_refl in H. rewrite orb_true_r in H. discriminate.
  - unfold gen_notok. destruct (g_tok g) as [tk|] eqn:E; [|reflexivity]. specialize (H tk). cbn in H. rewrite E in H. cbn in H. rewrite tok_eqb_refl in H. discriminate.
  - unfold tm_notok. destruct (tm_reg tm) as [[tk c]|] eqn:E; [|reflexivity]. specialize (H tk). cbn in H. rewrite E, tok_eqb_refl in H. discriminate.
  - unfold gen_notok. destruct (g_tok g) as [tk|] eqn:E; [|reflexivity]. specialize (H tk). cbn in H. rewrite E in H. cbn in H. rewrite tok_eqb_refl in H. discriminate.
Qed.

(* unregistering keeps a token-less source token-less, whatever the poller answers *)
Lemma gen_unregister_notok e g : gen_notok g = true -> gen_notok (snd (fst (gen_unregister e g))) = true.
Proof. intros H. unfold gen_unregister. destruct (ep_del _ _); [reflexivity|exact H]. Qed.
Lemma subs_unregister_notok subs : forall e, forallb gen_notok subs = true -> forallb gen_notok (snd (fst (subs_unregister e subs))) = true.
Proof.
  induction subs as [|g r IH]; intros e H; cbn in *; [reflexivity|]. apply andb_prop in H. destruct H as [Hg Hr].
  pose proof (gen_unregister_notok e g Hg) as G. destruct (gen_unregister e g) as [[ok g'] e']. cbn [fst snd] in G.
  destruct ok.
  - specialize (IH e' Hr). destruct (subs_unregister e' r) as [[r0 rest'] e'']. cbn [fst snd forallb] in *. rewrite G, IH. reflexivity.
  - cbn [fst snd forallb]. rewrite G, Hr. reflexivity.
Qed.
Lemma src_unregister_notok e x : src_notok x = true -> src_notok (snd (fst (src_unregister e x))) = true.
Proof.
  intros H. destruct x as [lc own subs tmr|g|tm|c g]; cbn in *.
  - apply andb_prop in H. destruct H as [H Ht]. apply andb_prop in H. destruct H as [Ho Hs].
    pose proof (subs_unregister_notok subs e Hs) as S. destruct (subs_unregister e subs) as [[ok subs'] e']. cbn [fst snd] in S.
    destruct ok, tmr as [tm|]; cbn; try (rewrite S; cbn; try exact Ht; reflexivity).
    destruct (timer_unregister e' tm) as [tm' e''] eqn:Et. cbn. rewrite S. cbn.
    unfold timer_unregister in Et. destruct (tm_reg tm) as [[tk c]|]; injection Et as <- _; reflexivity.
  - pose proof (gen_unregister_notok e g H) as G. destruct (gen_unregister e g) as [[ok g'] e']. exact G.
  - unfold timer_unregister. destruct (tm_reg tm) as [[tk c]|]; reflexivity.
  - pose proof (gen_unregister_notok e g H) as G. destruct (gen_unregister e g) as [[ok g'] e']. exact G.
Qed.
Lemma set_nth_gen_notok subs : forall j it m, forallb gen_notok (set_nth_gen subs j it m) = forallb gen_notok subs.
Proof. induction subs as [|g r IH]; intros [|j] it m; cbn; try reflexivity. rewrite IH. reflexivity. Qed.

Definition NT (s : st) (o : N) : Prop := forall ob, objs s o = Some ob -> src_notok (o_src ob) = true.
Lemma NT_eq s s' o : objs s' o = objs s o \/ objs s' o = None -> NT s o -> NT s' o.
Proof. intros [E|E] H ob Ho; rewrite E in Ho; [apply H; exact Ho|discriminate]. Qed.
Lemma NT_set_obj_src s o' x o : (o' = o -> src_notok x = true) -> NT s o -> NT (set_obj_src s o' x) o.
Proof.
  intros Hx H. destruct (N.eq_dec o' o) as [->|Hne].
  - intros ob Ho. unfold set_obj_src in Ho. destruct (objs s o) as [ob0|] eqn:E; [|rewrite E in Ho; discriminate].
    cbn in Ho. unfold fupd in Ho. rewrite N.eqb_refl in Ho. injection Ho as <-. cbn. apply Hx. reflexivity.
  - apply (NT_eq s); [left; apply objs_set_obj_src_other; congruence|exact H].
Qed.

Lemma NT_disp_unregister s o' t o : NT s o -> NT (snd (disp_unregister s o' t)) o.
Proof.
  intros H. unfold disp_unregister. destruct (objs s o') as [ob|] eqn:Eo; [|exact H]. destruct (is_running s o'); [exact H|].
  pose proof (src_unregister_notok (en s) (o_src ob)) as U.
  destruct (src_unregister _ _) as [[ok x'] e1]. cbn [fst snd] in *.
  assert (N1 : NT (regop (set_obj_src (set_en s e1) o' x') o' x' 2%Z ok) o).
  { apply (NT_eq (set_obj_src (set_en s e1) o' x')); [left; rewrite objs_regop; reflexivity|].
    apply NT_set_obj_src; [|exact H]. intros ->. apply U. apply H. exact Eo. }
  destruct (src_lc x'); exact N1.
Qed.
Lemma NT_disp_register s o' t o : o' <> o -> NT s o -> NT (snd (disp_register s o' t)) o.
Proof.
  intros Hne H. unfold disp_register. destruct (objs s o') as [ob|]; [|exact H]. destruct (is_running s o'); [exact H|].
  destruct (src_register _ _ _) as [[r x'] e1].
  assert (N0 : NT (set_obj_src (set_en s e1) o' x') o) by (apply NT_set_obj_src; [intros; contradiction|exact H]).
  destruct r; cbn [snd]; try destruct (src_lc x'); (eapply NT_eq; [|exact N0]); left; cbn [objs set_lifecycle panic set_halted emit set_log]; rewrite ?objs_regop; reflexivity.
Qed.
Lemma NT_disp_reregister s o' t o : o' <> o -> NT s o -> NT (snd (disp_reregister s o' t)) o.
Proof.
  intros Hne H. unfold disp_reregister. destruct (objs s o') as [ob|]; [|exact H]. destruct (is_running s o'); [exact H|].
  destruct (src_reregister _ _ _) as [[r x'] e1].
  assert (N0 : NT (set_obj_src (set_en s e1) o' x') o) by (apply NT_set_obj_src; [intros; contradiction|exact H]).
  destruct r; cbn [snd]; try destruct (src_lc x'); (eapply NT_eq; [|exact N0]); left; cbn [objs set_lifecycle panic set_halted emit set_log]; rewrite ?objs_regop; reflexivity.
Qed.
Lemma objs_maybe_drop_or s o' o : objs (maybe_drop s o') o = objs s o \/ objs (maybe_drop s o') o = None.
Proof.
  unfold maybe_drop, drop_obj. destruct (objs s o') as [ob|] eqn:E; [|left; reflexivity]. destruct (o_ext ob || in_slots (slots s) o'); [left; reflexivity|].
  destruct (is_running s o'); [left; reflexivity|]. cbn. unfold fupd. destruct (N.eqb_spec o o'); [right|left]; reflexivity.
Qed.
Lemma NT_maybe_drop s o' o : NT s o -> NT (maybe_drop s o') o.
Proof. apply NT_eq. apply objs_maybe_drop_or. Qed.
Lemma NT_drop_zombies l o : forall s, NT s o -> NT (drop_zombies s l) o.
Proof. induction l as [|x r IH]; intros s H; cbn; [exact H|]. apply IH. apply NT_maybe_drop. exact H. Qed.
Lemma NT_end_processing s o' o : NT s o -> NT (end_processing s o') o.
Proof. intros H. unfold end_processing. apply NT_drop_zombies. apply NT_maybe_drop. apply (NT_eq s); [left; reflexivity|exact H]. Qed.

Definition no_reg (o : N) (a : action) : Prop :=
  match a with AInsert h _ => h <> o | AEnable h => h <> o | AUpdate h => h <> o | _ => True end.

Lemma src_set_dl_notok x dl : src_notok (src_set_dl x dl) = src_notok x.
Proof. destruct x as [lc own subs [tm|]|g|tm|c g]; reflexivity. Qed.

(* what such an action (re)registers is the object of its own handle, not o *)
Lemma registers_other a o s o' : no_reg o a -> HOBJ s -> registers a s o' -> o' <> o.
Proof.
  intros Hn HO R. destruct a; cbn in *; try contradiction; [congruence| |]; destruct R as (t & et & L); rewrite (HOBJ_lookup s h t et o' HO L); exact Hn.
Qed.
Lemma astep_NT a o s s' : astep a s s' -> no_reg o a -> HOBJ s -> NT s o -> NT s' o.
Proof.
  destruct 1 as [s e' E|s args|s k|s h x Ea Eh|s i sl e h _ _ _|s i t h g _ _|s i t h g _|s o' t R|s o' t R|s o' t|s p _ _|s t _|s o'|
                 s h ob lc own subs tmr j it m Eh _ Es|s h ob dl Eh _|s h ob Eh _|s h ob Eh|s i _|s i];
    intros Hn HO H; try exact H.
  - subst a. apply (NT_eq s); [left; cbn; unfold fupd; destruct (N.eqb_spec o h); [congruence|reflexivity]|exact H].
  - apply NT_disp_register; [exact (registers_other a o s o' Hn HO R)|exact H].
  - apply NT_disp_reregister; [exact (registers_other a o s o' Hn HO R)|exact H].
  - apply NT_disp_unregister. exact H.
  - apply NT_maybe_drop. exact H.
  - apply NT_set_obj_src; [|exact H]. intros ->. specialize (H ob Eh). rewrite Es in H. cbn in *. rewrite set_nth_gen_notok. exact H.
  - apply NT_set_obj_src; [|exact H]. intros ->. rewrite src_set_dl_notok. exact (H ob Eh).
  - eapply NT_eq; [|exact H]. cbn. unfold fupd. destruct (N.eqb_spec o h); [right|left]; reflexivity.
  - intros ob' Ho. cbn in Ho. unfold fupd in Ho. destruct (N.eqb_spec o h) as [->|]; [|apply H; exact Ho]. injection Ho as <-. exact (H ob Eh).
Qed.

(* ---------- a token-less object ignores every event: nothing but the environment (a channel's self-ping) changes ---------- *)
Lemma obj_process_notok scr s o ob ev : objs s o = Some ob -> src_notok (o_src ob) = true ->
  let r := obj_process scr s o ev in
  snd r = Some Continue /\ slots (fst r) = slots s /\ toks (fst r) = toks s /\ objs (fst r) = objs s /\ cbn (fst r) = cbn s /\
  pending (fst r) = pending s /\ halted (fst r) = halted s /\ lifecycle (fst r) = lifecycle s /\ running (fst r) = running s /\
  zombies (fst r) = zombies s.
Proof.
  intros Ho Hn. cbv zeta. destruct (obj_process_foreign scr s o ob ev Ho (notok_silent _ Hn _)) as [R [->|[fd ->]]]; repeat split; exact R.
Qed.

Lemma obj_process_NT scr s o ev : NT s o ->
  snd (obj_process scr s o ev) = Some Continue /\ exists e, fst (obj_process scr s o ev) = set_en s e.
Proof.
  intros N. assert (Es : s = set_en s (en s)) by (destruct s; reflexivity). destruct (objs s o) as [ob|] eqn:Eo.
  - destruct (obj_process_foreign scr s o ob ev Eo (notok_silent _ (N ob Eo) _)) as [R [->|[fd ->]]]; (split; [exact R|]); eexists; [exact Es|reflexivity].
  - unfold obj_process. rewrite Eo. split; [reflexivity|]. eexists. exact Es.
Qed.

Definition J (s : st) (o : N) (c : nat) : Prop := slots_wf (slots s) /\ HOBJ s /\ NT s o /\ cbn s o = c.

Lemma J_of s s' o c : TKS s s' -> gens_small (slots s') -> J s o c -> NT s' o -> cbn s' o = c -> J s' o c.
Proof.
  intros T G (W & HO & _ & _) N C. split; [apply (proj1 (proj1 T)); exact W|]. split; [eapply HOBJ_TKS; eassumption|]. split; assumption.
Qed.
Lemma J_frame s s' o c : slots s' = slots s -> toks s' = toks s -> (objs s' o = objs s o \/ objs s' o = None) -> cbn s' o = cbn s o -> J s o c -> J s' o c.
Proof.
  intros E1 E2 E3 E4 (W & HO & N & C). split; [rewrite E1; exact W|]. split; [intros h t Ht; rewrite E1; apply HO; rewrite <- E2; exact Ht|].
  split; [eapply NT_eq; eassumption|congruence].
Qed.

Lemma J_astep a o c s s' : no_reg o a -> astep a s s' -> gpres (fun s => J s o c) s s'.
Proof.
  intros Hn S. split; [exact (astep_sstep a s s' S)|]. intros Js G.
  apply (J_of s); [exact (astep_TKS a s s' S)|exact G|exact Js| |rewrite (astep_cbc a s s' S); apply Js].
  destruct Js as (_ & HO & N & _). exact (astep_NT a o s s' S Hn HO N).
Qed.
Lemma J_exec_action s a o c : J s o c -> no_reg o a -> gens_small (slots (exec_action s a)) -> J (exec_action s a) o c.
Proof.
  intros Js Hn. assert (G : gpres (fun s => J s o c) s (exec_action s a)); [|apply G; exact Js].
  apply (star_gpres _ (astep a)); [intros x y; apply J_astep; exact Hn|apply exec_action_astar].
Qed.

(* scripts that never name o in insert / enable / update *)
Definition scr_ok (o : N) (scr : scripts) : Prop := forall k sc, In sc (scr k) -> Forall (no_reg o) (sc_acts sc).

Lemma J_set_obj_src_other s o' x o c : o' <> o -> J s o c -> J (set_obj_src s o' x) o c.
Proof.
  intros Hne Js. apply (J_frame s); [apply slots_set_obj_src|apply toks_set_obj_src|left; apply objs_set_obj_src_other; congruence|rewrite cbc_set_obj_src; reflexivity|exact Js].
Qed.

(* while another object h is processed, what changes besides the effects of its actions is h's callback counter, the environment
   and h's own source: nothing that J of o reads *)
Lemma J_cstep o c h : h <> o -> forall s s', cstep (no_reg o) h s s' -> gpres (fun s => J s o c) s s'.
Proof.
  intros Hne s s' S. split; [eapply cstep_sstep; exact S|]. intros Js G.
  destruct S as [s sub p|s a Ha|s e' _|s ob tk c0 dl _|s ob _].
  3: apply (J_frame s); try reflexivity; [left; reflexivity|exact Js].
  - apply (J_frame s); try reflexivity; [left; reflexivity| |exact Js]. cbn. unfold fupd. destruct (N.eqb_spec o h); [congruence|reflexivity].
  - apply J_exec_action; assumption.
  - apply J_set_obj_src_other; [exact Hne|]. apply (J_frame s); try reflexivity; [left; reflexivity|exact Js].
  - apply J_set_obj_src_other; assumption.
Qed.

(* ... nor does the rest of that iteration: its post action and its deferred unregistration are aimed at h, and the drops at its
   end can only remove o *)
Lemma J_lstep o c h : h <> o -> forall s s', lstep (no_reg o) h s s' -> gpres (fun s => J s o c) s s'.
Proof.
  intros Hne s s' S. split; [eapply lstep_sstep; exact S|]. intros Js G. pose proof (lstep_TKS _ _ _ _ S) as T.
  destruct S as [s s' C|s v|s|s t|s t|s t|s|s x]; [exact (proj2 (J_cstep o c h Hne s s' C) Js G)|..];
    (apply (J_of s); [exact T|exact G|exact Js| |]); try apply Js.
  - apply NT_disp_reregister; [exact Hne|apply Js].
  - rewrite cbc_disp_reregister. apply Js.
  - apply NT_disp_unregister. apply Js.
  - rewrite cbc_disp_unregister. apply Js.
  - apply NT_maybe_drop. apply Js.
  - rewrite cbc_maybe_drop. apply Js.
Qed.

Lemma J_end_processing s o' o c : J s o c -> J (end_processing s o') o c.
Proof.
  intros (W & HO & N & C). split; [rewrite slots_end_processing; exact W|]. split.
  - intros h t Ht. rewrite slots_end_processing. apply HO. rewrite toks_end_processing in Ht. exact Ht.
  - split; [apply NT_end_processing; exact N|rewrite cbc_end_processing; exact C].
Qed.

Lemma J_process_event scr s ev o c : scr_ok o scr -> J s o c -> pending s = Continue ->
  gens_small (slots (fst (process_event scr s ev))) -> J (fst (process_event scr s ev)) o c.
Proof.
  intros Hs Js Hp.
  destruct (slot_get (slots s) (forget_sub_id (unpack (ev_key ev)))) as [sl|] eqn:Esl; [|unfold process_event; rewrite Esl; intros _; exact Js].
  destruct (s_obj sl) as [o'|] eqn:Eo'; [|unfold process_event; rewrite Esl, Eo'; intros _; exact Js].
  destruct (N.eq_dec o' o) as [->|Hne].
  2:{ (* another object's event: every step of its iteration keeps J *)
      assert (G : gpres (fun s => J s o c) s (fst (process_event scr s ev))); [|apply G; exact Js].
      apply (star_gpres _ (lstep (no_reg o) o')); [apply J_lstep; exact Hne|exact (process_event_star_at (no_reg o) scr Hs s ev sl o' Esl Eo')]. }
  unfold process_event. rewrite Esl, Eo'. set (reg := forget_sub_id (unpack (ev_key ev))) in *.
  (* the token-less source itself: the event is ignored (at most the environment changes), nothing is pending, it stays in its slot *)
  destruct (obj_process_NT scr (set_running s (Some (o, reg))) o ev (proj1 (proj2 (proj2 Js)))) as (R & e & E).
  destruct (obj_process scr _ o ev) as [s2 ret]. cbn [fst snd] in R, E. subst ret s2.
  cbn [halted pending set_en set_running set_pending]. rewrite Hp. cbn [apply_post]. cbn [halted snd set_en set_running set_pending].
  assert (JF : forall x, slots x = slots s -> toks x = toks s -> objs x = objs s -> cbn x = cbn s -> J x o c)
    by (intros x E1 E2 E3 E4; apply (J_frame s); [exact E1|exact E2|left; rewrite E3; reflexivity|rewrite E4; reflexivity|exact Js]).
  destruct (halted s); [intros _; apply JF; reflexivity|].
  unfold slot_vacant_for. cbn [slots set_en set_running set_pending]. rewrite Esl, Eo'.
  intros _. apply J_end_processing. apply JF; reflexivity.
Qed.

Definition cmd_ok (o : N) (c : cmd) : Prop := match c with CAct a => no_reg o a | _ => True end.
Definition JT (s : st) (o : N) (c : nat) : Prop := J s o c /\ (halted s = true \/ quiet s).

(* between two steps of a dispatch or a command nothing is pending (or the loop has halted): a stale event of o's own cannot make it
   inherit a deferred re-registration *)
Lemma JT_dstep scr o c : scr_ok o scr -> forall s s', dstep (no_reg o) scr s s' -> gpres (fun s => JT s o c) s s'.
Proof.
  intros Hs s s' S. split; [eapply dstep_sstep; exact S|]. intros [Js Hq] G.
  split; [|exact (dstep_quiet _ scr s s' S Hq)].
  destruct S as [s ev Hh|s a Ha|s o' code|s v|s k|s l|s t order|s|s v].
  3-9: apply (J_frame s); try reflexivity; [left; reflexivity|exact Js].
  - destruct Hq as [X|Qs]; [congruence|]. apply J_process_event; [exact Hs|exact Js|exact (proj2 Qs)|exact G].
  - apply J_exec_action; assumption.
Qed.
Lemma JT_exec_cmds scr bscr cmds o c : forall s, scr_ok o scr -> Forall (cmd_ok o) cmds -> JT s o c ->
  gens_small (slots (fold_left (exec_cmd scr bscr) cmds s)) -> JT (fold_left (exec_cmd scr bscr) cmds s) o c.
Proof.
  intros s Hs F. apply (star_gpres (fun s => JT s o c) _ (JT_dstep scr o c Hs)). apply (exec_cmds_star (no_reg o) scr Hs); exact F.
Qed.

(* from any state with consistent handles in which o holds no token: whatever commands follow - with callbacks scripted by any
   scr2 - as long as none of them names handle o in insert / enable / update, o still holds no token and has run no callback *)
Theorem silent_until_named scr2 bscr2 cmds2 s o :
  slots_wf (slots s) -> HOBJ s -> (halted s = true \/ quiet s) -> NT s o ->
  scr_ok o scr2 -> Forall (cmd_ok o) cmds2 ->
  let s' := fold_left (exec_cmd scr2 bscr2) cmds2 s in
  gens_small (slots s') -> NT s' o /\ cbn s' o = cbn s o.
Proof.
  intros W HO Hq N Hs F. cbv zeta. intros G.
  destruct (JT_exec_cmds scr2 bscr2 cmds2 o (cbn s o) s Hs F) as [(_ & _ & N' & C') _]; [|exact G|split; assumption].
  split; [|exact Hq]. split; [exact W|]. split; [exact HO|]. split; [exact N|reflexivity].
Qed.
(* ... in particular from every state a scenario reaches *)
Theorem silent_until_named_run scr1 bscr1 cmds1 scr2 bscr2 cmds2 o :
  let s := run scr1 bscr1 cmds1 in let s' := fold_left (exec_cmd scr2 bscr2) cmds2 s in
  gens_small (slots s') -> NT s o -> scr_ok o scr2 -> Forall (cmd_ok o) cmds2 ->
  NT s' o /\ cbn s' o = cbn s o.
Proof.
  cbv zeta. intros G N Hs F.
  assert (G1 : gens_small (slots (run scr1 bscr1 cmds1))) by (eapply gens_small_mono; [apply (proj2 (exec_cmds_sstep scr2 bscr2 cmds2 _))|exact G]).
  apply silent_until_named; try assumption.
  - apply run_slots_wf.
  - apply HOBJ_run. exact G1.
  - destruct (halted (run scr1 bscr1 cmds1)) eqn:E; [left; reflexivity|right; apply run_quiet; exact E].
Qed.
