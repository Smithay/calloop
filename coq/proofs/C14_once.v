(* C14: each lifecycle source is visited exactly once per lifecycle loop. First: over any history the lifecycle list only changes
   by lc_register (of a token with sub-id 0) and lc_unregister, hence never holds a token twice; no hypothesis at all. Then: two
   entries never resolve to the same object (UNIQ of C14_life2), so each loop runs each source's hook once. Last: both over
   whole histories. *)
From CV Require Import Base Token Env Loop.
From CVP Require Import Loop_frames Loop_walk Seq_lemmas C06_proofs C14_life C14_life2.
Open Scope N_scope.

Inductive lcstep : list tok -> list tok -> Prop :=
| lcs_refl l : lcstep l l
| lcs_reg l l' t : lcstep l l' -> t_sub t = 0 -> lcstep l (lc_register l' t)
| lcs_unreg l l' t : lcstep l l' -> lcstep l (lc_unregister l' t).

Lemma lcstep_trans a b c : lcstep a b -> lcstep b c -> lcstep a c.
Proof. intros H1 H2. induction H2 as [|l l' t H IH Ht|l l' t H IH]; [exact H1|apply lcs_reg; [apply IH; exact H1|exact Ht]|apply lcs_unreg; apply IH; exact H1]. Qed.
Lemma lcstep_eq l l' : l' = l -> lcstep l l'.
Proof. intros ->. apply lcs_refl. Qed.

Lemma NoDup_lc_register l t : NoDup l -> NoDup (lc_register l t).
Proof. apply lc_register_nodup. Qed.
Lemma lcstep_nodup l l' : lcstep l l' -> NoDup l -> NoDup l'.
Proof. intros S H. induction S; [exact H|apply lc_register_nodup; auto|apply lc_unregister_nodup; auto]. Qed.
Lemma lcstep_sub0 l l' : lcstep l l' -> Forall (fun t => t_sub t = 0) l -> Forall (fun t => t_sub t = 0) l'.
Proof.
  intros S H. induction S as [|l l' t S IH Ht|l l' t S IH]; [exact H| |].
  - unfold lc_register. destruct (existsb _ _); [auto|]. apply Forall_app. split; [auto|constructor; [exact Ht|constructor]].
  - unfold lc_unregister. specialize (IH H). rewrite Forall_forall in *. intros x Hx. apply filter_In in Hx. apply IH. apply Hx.
Qed.

Lemma lc_disp_register s o t : lcstep (lifecycle s) (lifecycle (snd (disp_register s o t))).
Proof.
  unfold disp_register. destruct (objs s o) as [ob|]; [|apply lcs_refl]. destruct (is_running s o); [apply lcs_refl|].
  destruct (src_register _ _ _) as [[r x'] e1]. destruct r; cbn [snd].
  - destruct (src_lc x'); [cbn [lifecycle set_lifecycle]; apply lcs_reg; [|reflexivity]|]; apply lcstep_eq; rewrite lifecycle_regop, lifecycle_set_obj_src; reflexivity.
  - apply lcstep_eq. rewrite lifecycle_regop, lifecycle_set_obj_src. reflexivity.
  - apply lcstep_eq. cbn. rewrite lifecycle_set_obj_src. reflexivity.
Qed.
Lemma lc_disp_reregister s o t : lcstep (lifecycle s) (lifecycle (snd (disp_reregister s o t))).
Proof.
  unfold disp_reregister. destruct (objs s o) as [ob|]; [|apply lcs_refl]. destruct (is_running s o); [apply lcs_refl|].
  destruct (src_reregister _ _ _) as [[r x'] e1]. destruct r; cbn [snd].
  - destruct (src_lc x'); [cbn [lifecycle set_lifecycle]; apply lcs_reg; [|reflexivity]|]; apply lcstep_eq; rewrite lifecycle_regop, lifecycle_set_obj_src; reflexivity.
  - apply lcstep_eq. rewrite lifecycle_regop, lifecycle_set_obj_src. reflexivity.
  - apply lcstep_eq. cbn. rewrite lifecycle_set_obj_src. reflexivity.
Qed.
Lemma lc_disp_unregister s o t : lcstep (lifecycle s) (lifecycle (snd (disp_unregister s o t))).
Proof.
  unfold disp_unregister. destruct (objs s o) as [ob|]; [|apply lcs_refl]. destruct (is_running s o); [apply lcs_refl|].
  destruct (src_unregister _ _) as [[ok x'] e1]. cbn [snd].
  destruct (src_lc x'); [cbn [lifecycle set_lifecycle]; apply lcs_unreg|]; apply lcstep_eq; rewrite lifecycle_regop, lifecycle_set_obj_src; reflexivity.
Qed.

Lemma star_lc (step : st -> st -> Prop) : (forall a b, step a b -> lcstep (lifecycle a) (lifecycle b)) ->
  forall a b, star step a b -> lcstep (lifecycle a) (lifecycle b).
Proof. apply (star_incl (fun a b => lcstep (lifecycle a) (lifecycle b))); [intros; apply lcs_refl|intros; eapply lcstep_trans; eassumption]. Qed.

Lemma astep_lc a s s' : astep a s s' -> lcstep (lifecycle s) (lifecycle s').
Proof.
  destruct 1; try (apply lcstep_eq; reflexivity); [apply lc_disp_register|apply lc_disp_reregister|apply lc_disp_unregister|..];
    apply lcstep_eq; [apply lifecycle_maybe_drop|apply lifecycle_set_obj_src|apply lifecycle_set_obj_src].
Qed.
Lemma lc_exec_action s a : lcstep (lifecycle s) (lifecycle (exec_action s a)).
Proof. apply (star_lc _ (astep_lc a)), exec_action_astar. Qed.

Lemma cstep_lc ok h s s' : cstep ok h s s' -> lcstep (lifecycle s) (lifecycle s').
Proof.
  destruct 1; try (apply lcstep_eq; reflexivity); [apply lc_exec_action| |]; apply lcstep_eq; rewrite lifecycle_set_obj_src; reflexivity.
Qed.
Lemma lstep_lc ok o s s' : lstep ok o s s' -> lcstep (lifecycle s) (lifecycle s').
Proof.
  destruct 1; try (apply lcstep_eq; reflexivity).
  - eapply cstep_lc; eassumption.
  - apply lc_disp_reregister.
  - apply lc_disp_unregister.
  - apply lcstep_eq, lifecycle_maybe_drop.
Qed.
Lemma dstep_lc ok scr : scripts_ok ok scr -> forall s s', dstep ok scr s s' -> lcstep (lifecycle s) (lifecycle s').
Proof.
  intros Hscr s s'. destruct 1 as [x ev Hx| | | | | | | |]; try (apply lcstep_eq; reflexivity).
  - destruct (process_event_star ok scr Hscr x ev) as [o S]. eapply star_lc; [apply lstep_lc|exact S].
  - apply lc_exec_action.
Qed.
Lemma lc_exec_cmds scr bscr cmds : forall s, lcstep (lifecycle s) (lifecycle (fold_left (exec_cmd scr bscr) cmds s)).
Proof.
  intros s. eapply star_lc; [apply (dstep_lc (fun _ => True) scr), scripts_ok_True|].
  apply exec_cmds_star; [apply scripts_ok_True|apply cmds_ok_True].
Qed.

Theorem lifecycle_nodup_run scr bscr cmds : NoDup (lifecycle (run scr bscr cmds)).
Proof. unfold run. eapply lcstep_nodup; [apply lc_exec_cmds|constructor]. Qed.

Lemma lc_lookup_inj s t1 t2 o : UNIQ s -> t_sub t1 = 0 -> t_sub t2 = 0 ->
  lc_lookup s t1 = Some o -> lc_lookup s t2 = Some o -> t1 = t2.
Proof.
  intros U S1 S2 L1 L2. unfold lc_lookup in *.
  destruct (slot_get (slots s) t1) as [sl1|] eqn:G1; [|discriminate]. destruct (slot_get (slots s) t2) as [sl2|] eqn:G2; [|discriminate].
  destruct (slot_get_some _ _ _ G1) as [E1 A1]. destruct (slot_get_some _ _ _ G2) as [E2 A2].
  pose proof (U _ _ _ _ _ E1 E2 L1 L2) as Hi. rewrite Hi, E2 in E1. injection E1 as <-.
  exact (same_slot_same_tok sl2 t1 t2 A1 A2 S1 S2).
Qed.

(* how many entries of l resolve to object o *)
Definition visits (s : st) (l : list tok) (o : N) : nat :=
  length (filter (fun t => match lc_lookup s t with Some o' => o' =? o | None => false end) l).

Lemma visits_0_of_fresh s l o t : UNIQ s -> t_sub t = 0 -> lc_lookup s t = Some o -> ~ In t l -> Forall (fun t => t_sub t = 0) l ->
  visits s l o = 0%nat.
Proof.
  intros U St Lt. unfold visits. induction l as [|x l IH]; intros Hn F; cbn [filter]; [reflexivity|].
  inversion F as [|? ? Sx F']; subst.
  assert (Hn' : ~ In t l) by (intros Hi; apply Hn; right; exact Hi).
  destruct (lc_lookup s x) as [ox|] eqn:Lx; [|apply IH; assumption].
  destruct (N.eqb_spec ox o) as [->|]; [|apply IH; assumption].
  exfalso. apply Hn. left. symmetry. apply (lc_lookup_inj s t x o); assumption.
Qed.
Lemma visits_le_1 s l o : UNIQ s -> NoDup l -> Forall (fun t => t_sub t = 0) l -> (visits s l o <= 1)%nat.
Proof.
  intros U. induction l as [|t l IH]; intros Nd F; [unfold visits; cbn; lia|].
  inversion Nd as [|? ? Hn Nd']; subst. inversion F as [|? ? St F']; subst. specialize (IH Nd' F').
  unfold visits in *. cbn [filter].
  destruct (lc_lookup s t) as [o'|] eqn:Lt; [|exact IH]. destruct (N.eqb_spec o' o) as [->|]; [|exact IH].
  cbn [length]. pose proof (visits_0_of_fresh s l o t U St Lt Hn F') as Z. unfold visits in Z. rewrite Z. lia.
Qed.
Lemma visits_ge_1 s l o t : In t l -> lc_lookup s t = Some o -> (1 <= visits s l o)%nat.
Proof.
  intros Hi L. unfold visits. induction l as [|x l IH]; [destruct Hi|]. cbn [filter].
  destruct Hi as [->|Hi].
  - rewrite L, N.eqb_refl. cbn. lia.
  - specialize (IH Hi). destruct (match lc_lookup s x with Some o' => o' =? o | None => false end); cbn [length]; lia.
Qed.
Lemma visits_slots s s' l o : slots s' = slots s -> visits s' l o = visits s l o.
Proof. intros E. unfold visits, lc_lookup. rewrite E. reflexivity. Qed.

(* before_sleep: the per-object counter of before_sleep invocations grows by the number of entries resolving to the object
   (when the loop runs to its end), and never by more *)
Lemma before_sleep_loop_bsn bscr l : forall s o,
  (bsn (fst (before_sleep_loop bscr s l)) o <= bsn s o + visits s l o)%nat /\
  (snd (before_sleep_loop bscr s l) = BSOk -> bsn (fst (before_sleep_loop bscr s l)) o = (bsn s o + visits s l o)%nat).
Proof.
  induction l as [|t l IH]; intros s o; cbn [before_sleep_loop]; [unfold visits; cbn; split; [lia|intros _; lia]|].
  set (d := match lc_lookup s t with Some o' => if N.eqb o' o then 1%nat else 0%nat | None => 0%nat end).
  assert (Vd : visits s (t :: l) o = (d + visits s l o)%nat).
  { unfold visits, d. cbn [filter]. destruct (lc_lookup s t) as [o'|]; [destruct (N.eqb o' o)|]; reflexivity. }
  rewrite Vd. clear Vd.
  destruct (lc_lookup s t) as [o'|] eqn:Lt; [|cbn; split; [lia|discriminate]].
  set (s1 := emit (set_bsn s (fupd (bsn s) o' (S (bsn s o')))) _).
  assert (B1 : bsn s1 o = (bsn s o + d)%nat).
  { unfold d. change (bsn s1 o) with (if N.eqb o o' then S (bsn s o') else bsn s o). rewrite (N.eqb_sym o' o).
    destruct (N.eqb_spec o o') as [->|]; lia. }
  assert (K : forall sx, slots sx = slots s -> bsn sx o = bsn s1 o ->
     (bsn (fst (before_sleep_loop bscr sx l)) o <= bsn s o + (d + visits s l o))%nat /\
     (snd (before_sleep_loop bscr sx l) = BSOk -> bsn (fst (before_sleep_loop bscr sx l)) o = (bsn s o + (d + visits s l o))%nat)).
  { intros sx E Eb. destruct (IH sx o) as [I1 I2]. rewrite (visits_slots s sx l o E) in I1, I2. rewrite Eb, B1 in I1, I2.
    split; [lia|intros H; specialize (I2 H); lia]. }
  destruct (nth (bsn s o') (bscr o') 0) as [|p] eqn:Ec.
  - apply K; reflexivity.
  - destruct p; try (cbn [fst snd]; split; [rewrite B1; lia|discriminate]).
    destruct (match objs s1 o' with Some ob => _ | None => None end) as [tk|]; apply K; reflexivity.
Qed.

(* before_handle: one BH line per lifecycle entry, in list order, carrying exactly the polled events of that entry's token *)
Definition bh_line (s : st) (polled : list pevent) (t : tok) : tline :=
  L T_BH (zN (match lc_lookup s t with Some o => o | None => 0 end) :: map ev_code (filter (fun e => same_source_as (unpack (ev_key e)) t) polled)).
Lemma before_handle_loop_log l polled : forall s, snd (before_handle_loop s l polled) = true ->
  log (fst (before_handle_loop s l polled)) = rev (map (bh_line s polled) l) ++ log s.
Proof.
  induction l as [|t l IH]; intros s H; cbn [before_handle_loop] in *; [reflexivity|].
  destruct (lc_lookup s t) as [o|] eqn:Lt; [|discriminate].
  rewrite (IH _ H). cbn [map rev]. rewrite <- app_assoc. cbn [app log emit set_log].
  assert (E : forall x y, bh_line (emit s y) polled x = bh_line s polled x) by reflexivity.
  rewrite (map_ext _ _ (fun x => E x _)). f_equal. unfold bh_line. rewrite Lt. reflexivity.
Qed.
(* ... and the objects named by those lines are pairwise distinct *)
Lemma visited_objs_nodup s l : UNIQ s -> NoDup l -> Forall (fun t => t_sub t = 0) l -> (forall t, In t l -> lc_lookup s t <> None) ->
  NoDup (map (lc_lookup s) l).
Proof.
  intros U. induction l as [|t l IH]; intros Nd F R; cbn [map]; [constructor|].
  inversion Nd as [|? ? Hn Nd']; subst. inversion F as [|? ? St F']; subst.
  constructor; [|apply IH; [exact Nd'|exact F'|intros x Hx; apply R; right; exact Hx]].
  intros Hi. apply in_map_iff in Hi. destruct Hi as [x [Ex Hx]].
  destruct (lc_lookup s t) as [o|] eqn:Lt; [|apply (R t); [left; reflexivity|exact Lt]].
  apply Hn. rewrite Forall_forall in F'. rewrite (lc_lookup_inj s t x o U St (F' x Hx) Lt Ex). exact Hx.
Qed.

Lemma reachable_lifecycle_facts scr bscr cmds : let s := run scr bscr cmds in gens_small (slots s) -> halted s = false ->
  UNIQ s /\ NoDup (lifecycle s) /\ Forall (fun t => t_sub t = 0) (lifecycle s) /\ (forall t, In t (lifecycle s) -> lc_lookup s t <> None).
Proof.
  cbv zeta. intros G Hh. destruct (run_TOP scr bscr cmds G) as [X|[Qs Hr]]; [congruence|].
  destruct Qs as (Li & _ & _ & U & _). split; [exact U|]. split; [apply lifecycle_nodup_run|].
  rewrite Hr in Li. split.
  - apply Forall_forall. intros t Ht. destruct Li as (A & _). apply (A t Ht).
  - intros t Ht. destruct (LI_resolves _ Li t Ht) as [o Ho]. rewrite Ho. discriminate.
Qed.

Theorem before_sleep_once_per_dispatch scr bscr cmds o : let s := run scr bscr cmds in gens_small (slots s) -> halted s = false ->
  let r := before_sleep_loop bscr s (lifecycle s) in
  (bsn (fst r) o <= S (bsn s o))%nat /\
  (snd r = BSOk -> (exists t, In t (lifecycle s) /\ lc_lookup s t = Some o) -> bsn (fst r) o = S (bsn s o)) /\
  (snd r = BSOk -> (forall t, In t (lifecycle s) -> lc_lookup s t <> Some o) -> bsn (fst r) o = bsn s o).
Proof.
  cbv zeta. intros G Hh. destruct (reachable_lifecycle_facts scr bscr cmds G Hh) as (U & Nd & F & R).
  set (s := run scr bscr cmds) in *.
  destruct (before_sleep_loop_bsn bscr (lifecycle s) s o) as [B1 B2].
  pose proof (visits_le_1 s (lifecycle s) o U Nd F) as V1.
  split; [lia|split].
  - intros Hok [t [Ht Lt]]. pose proof (visits_ge_1 s (lifecycle s) o t Ht Lt). rewrite (B2 Hok). lia.
  - intros Hok Hno. rewrite (B2 Hok). assert (Z : visits s (lifecycle s) o = 0%nat); [|lia].
    unfold visits. clear -Hno. induction (lifecycle s) as [|x l IH]; cbn [filter]; [reflexivity|].
    destruct (lc_lookup s x) as [ox|] eqn:Lx.
    + destruct (N.eqb_spec ox o) as [->|]; [exfalso; apply (Hno x); [left; reflexivity|exact Lx]|]. apply IH. intros t Ht. apply Hno. right. exact Ht.
    + apply IH. intros t Ht. apply Hno. right. exact Ht.
Qed.

Theorem before_handle_once_per_dispatch scr bscr cmds e2 line polled : let s := run scr bscr cmds in gens_small (slots s) -> halted s = false ->
  let s3 := emit (set_en (fst (before_sleep_loop bscr s (lifecycle s))) e2) line in
  let r := before_handle_loop s3 (lifecycle s3) polled in
  snd r = true /\ lifecycle s3 = lifecycle s /\
  log (fst r) = rev (map (bh_line s3 polled) (lifecycle s3)) ++ log s3 /\
  NoDup (map (lc_lookup s3) (lifecycle s3)) /\ (forall t, In t (lifecycle s3) -> lc_lookup s3 t <> None).
Proof.
  cbv zeta. intros G Hh. destruct (reachable_lifecycle_facts scr bscr cmds G Hh) as (U & Nd & F & R).
  destruct (never_unreachable scr bscr cmds G Hh) as [_ NU]. cbv zeta in NU. specialize (NU e2 line polled).
  set (s := run scr bscr cmds) in *.
  set (s3 := emit (set_en (fst (before_sleep_loop bscr s (lifecycle s))) e2) line) in *.
  destruct (before_sleep_loop_writes bscr (lifecycle s) s) as (b & y & h & lg & E).
  assert (El : lifecycle s3 = lifecycle s) by (unfold s3; rewrite E; reflexivity).
  assert (Es : slots s3 = slots s) by (unfold s3; rewrite E; reflexivity).
  assert (Ll : forall t, lc_lookup s3 t = lc_lookup s t) by (intros t; unfold lc_lookup; rewrite Es; reflexivity).
  split; [exact NU|]. split; [exact El|]. split; [apply before_handle_loop_log; exact NU|].
  assert (U3 : UNIQ s3) by (unfold UNIQ; rewrite Es; exact U).
  rewrite El. split.
  - apply visited_objs_nodup; [exact U3|exact Nd|exact F|intros t Ht; rewrite Ll; apply R; exact Ht].
  - intros t Ht. rewrite Ll. apply R. exact Ht.
Qed.
