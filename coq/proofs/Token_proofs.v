From CV Require Import Base Consts Token.
Open Scope N_scope.

Lemma mask_version : MASK_VERSION = 65535. Proof. reflexivity. Qed.
Lemma mask_subid : MASK_SUBID = 65535. Proof. reflexivity. Qed.

Definition pack_a (t : tok) : N := t_id t * U32 + t_ver t * U16 + t_sub t.

Lemma pack_lt (t : tok) : wf_tok t -> pack_a t < USIZE.
Proof. unfold wf_tok, pack_a, U32, U16, USIZE. intros (Hi & Hv & Hs). lia. Qed.

Lemma pack_arith (t : tok) : wf_tok t -> pack t = pack_a t.
Proof.
  intros H. unfold pack. 
  change (BITS_SUBID + BITS_VERSION) with 32. change BITS_SUBID with 16.
  rewrite !N.shiftl_mul_pow2. change (2 ^ 32) with U32. change (2 ^ 16) with U16.
  apply N.mod_small. apply (pack_lt t H).
Qed.

Lemma unpack_arith (k : N) :
  unpack k = mkTok ((k / U32) mod U32) ((k / U16) mod U16) (k mod U16).
Proof.
  unfold unpack. change (BITS_SUBID + BITS_VERSION) with 32. change BITS_SUBID with 16.
  rewrite mask_version, mask_subid. change 65535 with (N.ones 16).
  rewrite !N.land_ones, !N.shiftr_div_pow2.
  change (2 ^ 16) with U16. change (2 ^ 32) with U32.
  rewrite !N.mod_mod by (unfold U16; lia). reflexivity.
Qed.

Lemma unpack_pack (t : tok) : wf_tok t -> unpack (pack t) = t.
Proof.
  intros H. rewrite (pack_arith t H), unpack_arith. destruct t as [i v s]. 
  unfold wf_tok, pack_a in *. cbn [t_id t_ver t_sub] in *. destruct H as (Hi & Hv & Hs).
  assert (E1 : (i * U32 + v * U16 + s) = (i * U16 + v) * U16 + s) by (unfold U32, U16; lia).
  destruct (divmod_qa (i * U16 + v) s U16 Hs) as [D1 M1].
  destruct (divmod_qa i v U16 Hv) as [D2 M2].
  assert (Hvs : v * U16 + s < U32) by (unfold U32, U16 in *; lia).
  destruct (divmod_qa i (v * U16 + s) U32 Hvs) as [D3 M3].
  f_equal.
  - replace (i * U32 + v * U16 + s) with (i * U32 + (v * U16 + s)) by lia.
    rewrite D3. apply N.mod_small; assumption.
  - rewrite E1, D1. exact M2.
  - rewrite E1. exact M1.
Qed.

Lemma unpack_wf (k : N) : wf_tok (unpack k).
Proof.
  rewrite unpack_arith. unfold wf_tok; cbn [t_id t_ver t_sub].
  repeat split; apply N.mod_lt; unfold U32, U16; lia.
Qed.

Lemma pack_unpack (k : N) : k < USIZE -> pack (unpack k) = k.
Proof.
  intros Hk. rewrite (pack_arith _ (unpack_wf k)), unpack_arith. unfold pack_a; cbn [t_id t_ver t_sub].
  assert (Hd : k / U32 < U32).
  { apply N.div_lt_upper_bound; [unfold U32; lia|]. unfold U32, USIZE in *; lia. }
  rewrite (N.mod_small _ _ Hd).
  assert (H16 : U16 <> 0) by (unfold U16; lia).
  assert (E : k / U32 = k / U16 / U16).
  { rewrite N.div_div by assumption. reflexivity. }
  pose proof (N.div_mod k U16 H16) as A.
  pose proof (N.div_mod (k / U16) U16 H16) as B.
  rewrite E.
  remember (k / U16 / U16) as q. remember ((k / U16) mod U16) as r.
  remember (k mod U16) as s. remember (k / U16) as p.
  clear - A B.
  unfold U32, U16 in *. lia.
Qed.

Lemma pack_inj (a b : tok) : wf_tok a -> wf_tok b -> pack a = pack b -> a = b.
Proof. intros Ha Hb E. rewrite <- (unpack_pack a Ha), <- (unpack_pack b Hb), E. reflexivity. Qed.

Lemma pack_not_notify_key (t : tok) : wf_tok t -> t_id t < U32 - 1 -> pack t <> USIZE_MAX.
Proof.
  intros H Hi. rewrite (pack_arith t H). unfold pack_a, wf_tok, USIZE_MAX, USIZE, U32, U16 in *.
  destruct H as (_ & Hv & Hs). lia.
Qed.

Lemma pack_max_id_collides : pack (mkTok (U32 - 1) (U16 - 1) (U16 - 1)) = USIZE_MAX.
Proof. reflexivity. Qed.

Lemma increment_version_spec (t : tok) : wf_tok t ->
  increment_version t = mkTok (t_id t) ((t_ver t + 1) mod U16) 0 /\ wf_tok (increment_version t).
Proof.
  intros (Hi & Hv & Hs). unfold increment_version. rewrite mask_version.
  change (65535 mod U16) with (N.ones 16). rewrite N.land_ones. change (2 ^ 16) with U16.
  rewrite N.mod_mod by (unfold U16; lia). split; [reflexivity|].
  unfold wf_tok; cbn [t_id t_ver t_sub]. repeat split; try assumption.
  apply N.mod_lt. unfold U16; lia.
Qed.

Lemma increment_sub_id_spec (t : tok) : wf_tok t ->
  increment_sub_id t = if t_sub t + 1 <? U16 then Some (mkTok (t_id t) (t_ver t) (t_sub t + 1)) else None.
Proof.
  intros (Hi & Hv & Hs). unfold increment_sub_id. rewrite mask_subid. change (65535 mod U16) with 65535.
  destruct (N.ltb_spec (t_sub t + 1) U16) as [H|H]; cbn [andb]; [|reflexivity].
  destruct (N.leb_spec (t_sub t + 1) 65535) as [H'|H']; [reflexivity|]. unfold U16 in *; lia.
Qed.

Lemma factory_take_spec (n : nat) : forall (f : factory) (l : list tok), wf_tok f ->
  factory_take f n = Some l ->
  length l = n /\ (forall i t, nth_error l i = Some t -> t = mkTok (t_id f) (t_ver f) (t_sub f + N.of_nat i))
  /\ (n = O \/ t_sub f + N.of_nat n < U16).
Proof.
  induction n as [|n IH]; intros f l Hwf H; cbn [factory_take] in H.
  - injection H as <-. split; [reflexivity|]. split; [|left; reflexivity]. intros [|i] t Hn; discriminate.
  - unfold factory_token in H. rewrite (increment_sub_id_spec f Hwf) in H.
    destruct (N.ltb_spec (t_sub f + 1) U16) as [Hlt|Hge]; [|discriminate].
    destruct (factory_take _ n) as [l'|] eqn:E; [|discriminate]. injection H as <-.
    assert (Hwf' : wf_tok (mkTok (t_id f) (t_ver f) (t_sub f + 1))).
    { destruct Hwf as (Hi & Hv & Hs). unfold wf_tok; cbn [t_id t_ver t_sub]. auto. }
    destruct (IH _ _ Hwf' E) as (Hlen & Hnth & Hb). cbn [t_id t_ver t_sub] in *.
    split; [cbn; congruence|]. split.
    + intros [|i] t Hn; cbn [nth_error] in Hn.
      * injection Hn as <-. destruct f; cbn. f_equal. lia.
      * rewrite (Hnth i t Hn). f_equal. lia.
    + right. destruct Hb as [->|Hb]; lia.
Qed.

Lemma factory_take_fails (n : nat) : forall (f : factory), wf_tok f ->
  U16 <= t_sub f + N.of_nat n -> (0 < n)%nat -> factory_take f n = None.
Proof.
  induction n as [|n IH]; intros f Hwf Hb Hn; [lia|].
  cbn [factory_take]. unfold factory_token. rewrite (increment_sub_id_spec f Hwf).
  destruct (N.ltb_spec (t_sub f + 1) U16) as [Hlt|Hge]; [|reflexivity].
  destruct n as [|n']; [lia|].
  rewrite IH; [reflexivity| | |lia].
  - destruct Hwf as (Hi & Hv & Hs). unfold wf_tok; cbn [t_id t_ver t_sub]. auto.
  - cbn [t_sub]. lia.
Qed.

Lemma factory_take_succeeds (n : nat) : forall (f : factory), wf_tok f ->
  t_sub f + N.of_nat n < U16 -> exists l, factory_take f n = Some l.
Proof.
  induction n as [|n IH]; intros f Hwf Hb; [exists []; reflexivity|].
  cbn [factory_take]. unfold factory_token. rewrite (increment_sub_id_spec f Hwf).
  destruct (N.ltb_spec (t_sub f + 1) U16) as [Hlt|Hge]; [|lia].
  destruct (IH (mkTok (t_id f) (t_ver f) (t_sub f + 1))) as [l Hl].
  - destruct Hwf as (Hi & Hv & Hs). unfold wf_tok; cbn [t_id t_ver t_sub]. auto.
  - cbn [t_sub]. lia.
  - rewrite Hl. eexists; reflexivity.
Qed.
