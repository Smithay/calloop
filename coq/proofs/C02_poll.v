From CV Require Import Base Env Loop.
Open Scope N_scope.

(* every dispatch whose before_sleep hooks succeeded asks the poller, whatever synthetic events the hooks produced: the synthetic events are
   put IN FRONT of what the poller and the wheel reported, never in its place, and the whole list goes to process_events *)
Lemma dispatch_always_polls scr bscr s t order s1 polled e2 s4 :
  before_sleep_loop bscr s (lifecycle s) = (s1, BSOk) ->
  poll (en s1) t order = (polled, e2) ->
  before_handle_loop (emit (set_en s1 e2) (L T_BATCH (zsort (map ev_code polled)))) (lifecycle (emit (set_en s1 e2) (L T_BATCH (zsort (map ev_code polled))))) polled = (s4, true) ->
  dispatch scr bscr s t order =
    let (s5, ok2) := process_events scr (set_synth s4 []) (synth s4 ++ polled) in
    if halted s5 then s5
    else if negb ok2 then emit s5 (L T_DISP [t; DISP_ERR])
    else let s6 := run_idles scr (set_idles s5 []) (idles s5) in if halted s6 then s6 else emit s6 (L T_DISP [t; DISP_OK]).
Proof.
  intros H1 H2 H3. unfold dispatch. rewrite H1, H2. cbv zeta. rewrite H3. cbn [negb]. reflexivity.
Qed.
Lemma polled_events_are_all_handed_on synth_evs polled (ev : pevent) : In ev polled -> In ev (synth_evs ++ polled).
Proof. intros H. apply in_or_app. right. exact H. Qed.
