From CV Require Import Base Consts ConcChannel.
Open Scope N_scope.

Fixpoint csum (l : list cthread) : N := match l with [] => 0 | t :: r => ct_mine t + csum r end.
Definition is_toping (t : cthread) : bool := match ct_stage t with CToPing | CToPingRelease | CToPingB | CB1 _ => true | _ => false end.
Fixpoint ntoping (l : list cthread) : N := match l with [] => 0 | t :: r => (if is_toping t then 1 else 0) + ntoping r end.

Definition loop_busy (s : ccst) : bool := match cl_stage (cloop s) with CLIdle | CLCloseWrite => false | _ => true end.
(* some wake-up is on its way: the eventfd is readable, or a sender is between its enqueue/drop and its ping, or the loop
   is inside its drain (and will either see Empty/Closed or re-ping itself) *)
Definition wake_pending (s : ccst) : Prop := 2 <= cctr s \/ 1 <= ntoping (cthr s) \/ loop_busy s = true.

Definition ccinv (s : ccst) : Prop :=
  (* exactly once, in order: what was delivered followed by what is queued is what was sent *)
  cdelivered s ++ cq s = csent s /\
  csenders s = csum (cthr s) /\
  Forall (fun t => wf_cprog (ct_mine t) (ct_ops t) = true) (cthr s) /\
  (* no message, and no pending disconnect, is ever left without a wake-up on its way *)
  (creg s = true -> (cq s <> [] \/ csenders s = 0) -> wake_pending s) /\
  (* Closed: at most once, only after the last sender is gone and the queue is empty; then the source is gone *)
  cclosed s <= 1 /\ (cclosed s = 1 <-> creg s = false) /\ (creg s = false -> csenders s = 0 /\ cq s = []) /\
  (* the loop drains only while the source is registered *)
  (loop_busy s = true -> creg s = true).

Lemma thr_upd l : forall i t t', nth_error l i = Some t ->
  Forall (fun t => wf_cprog (ct_mine t) (ct_ops t) = true) l -> wf_cprog (ct_mine t') (ct_ops t') = true ->
  csum (upd_ct l i t') + ct_mine t = csum l + ct_mine t' /\
  ntoping (upd_ct l i t') + (if is_toping t then 1 else 0) = ntoping l + (if is_toping t' then 1 else 0) /\
  (if is_toping t' then 1 else 0) <= ntoping (upd_ct l i t') /\
  Forall (fun t => wf_cprog (ct_mine t) (ct_ops t) = true) (upd_ct l i t').
Proof.
  induction l as [|x r IH]; intros [|i] t t' H F W; cbn in *; try discriminate; inversion F; subst.
  - injection H as ->. repeat split; [lia..|constructor; assumption].
  - destruct (IH i t t' H) as (A & B & C & D); try assumption. repeat split; [lia..|constructor; assumption].
Qed.
Lemma csum_ge l i t : nth_error l i = Some t -> ct_mine t <= csum l.
Proof. revert i; induction l as [|x r IH]; intros [|i] H; cbn in *; try discriminate; [injection H as ->; lia|specialize (IH i H); lia]. Qed.
Lemma upd_ct_same l : forall i t, nth_error l i = Some t -> upd_ct l i t = l.
Proof. induction l as [|x r IH]; intros [|i] t H; cbn in *; try discriminate; [congruence|f_equal; auto]. Qed.

Ltac kcbn := cbn [cq csenders cctr creg cbound cph cloop cthr csent cdelivered cclosed ctr_log cl_stage cl_disp ct_mine ct_ops ct_stage set_thr set_loop].
Ltac ksplit := unfold ccinv; kcbn; split; [|split; [|split; [|split; [|split; [|split; [|split]]]]]].

Lemma wp_mono s s' : wake_pending s -> cctr s <= cctr s' -> ntoping (cthr s) <= ntoping (cthr s') ->
  (loop_busy s = true -> loop_busy s' = true) -> wake_pending s'.
Proof. intros [H|[H|H]] A B C; [left; lia|right; left; lia|right; right; auto]. Qed.

Lemma ccinv_loop_step s : ccinv s -> ccinv (cl_step s).
Proof.
  intros Hinv. pose proof Hinv as (K1 & K2 & K3 & K4 & K5 & K6 & K7 & K8).
  unfold cl_step. destruct (cl_stage (cloop s)) as [| |[|k]| |] eqn:Est.
  - (* idle: poll *)
    destruct (cl_disp (cloop s)) as [|d]; [exact Hinv|].
    destruct (creg s && (0 <? cctr s)) eqn:Ec.
    + apply andb_prop in Ec as [Er _]. ksplit; try assumption.
      * intros _ _. right; right. reflexivity.
      * intros _. exact Er.
    + ksplit; try assumption.
      * intros Hr Ha. destruct (K4 Hr Ha) as [H|[H|H]]; [left; exact H|right; left; exact H|].
        unfold loop_busy in H. rewrite Est in H. discriminate.
      * intros H. discriminate.
  - (* drain *)
    assert (Hr : creg s = true) by (apply K8; unfold loop_busy; rewrite Est; reflexivity).
    destruct (2 <=? cctr s); ksplit; try assumption; try (intros _ _; right; right; reflexivity); intros _; exact Hr.
  - (* CLLoop 0 *) ksplit; try assumption.
    + intros Hr Ha. right; right. reflexivity.
    + intros _. apply K8. unfold loop_busy. rewrite Est. reflexivity.
  - (* one try_recv *)
    assert (Hr : creg s = true) by (apply K8; unfold loop_busy; rewrite Est; reflexivity).
    destruct (cq s) as [|v q'] eqn:Eq.
    + destruct (N.eqb_spec (csenders s) 0) as [E0|E0].
      * (* disconnected: Closed, Remove *)
        assert (Hc : cclosed s = 0).
        { destruct (N.eq_dec (cclosed s) 1) as [E|E]; [apply K6 in E; congruence|lia]. }
        destruct (cph s =? 1); ksplit; try assumption.
        all: try (intros H; discriminate); try lia; try (split; intros _; [reflexivity|lia]); try (intros _; split; [exact E0|reflexivity]).
      * ksplit; try assumption.
        -- rewrite Eq. exact K1.
        -- intros _ [H|H]; [exfalso; apply H; exact Eq|contradiction].
        -- rewrite Eq. exact K7.
        -- intros H; discriminate.
    + ksplit; try assumption.
      * rewrite <- K1, <- app_assoc. reflexivity.
      * intros _ _. right; right. destruct k; reflexivity.
      * intros Hf. destruct (K7 Hf) as [A B]. discriminate.
      * intros _. exact Hr.
  - (* re-ping *)
    ksplit; try assumption.
    + intros _ _. left. kcbn. unfold INCREMENT_PING. lia.
    + intros H; discriminate.
  - (* the dropped channel's close marker *)
    ksplit; try assumption.
    + intros Hr Ha. destruct (K4 Hr Ha) as [H|[H|H]]; [left; kcbn; lia|right; left; exact H|].
      unfold loop_busy in H. rewrite Est in H. discriminate.
    + intros H; discriminate.
Qed.

(* Thread i rewrites the channel's queue, sender count and eventfd counter and becomes t'.  The invariant survives if the
   sender count moves with the thread's own share, a dead channel is left alone, and a wake-up is still on its way whenever one
   is owed: the counter is readable, or t' is about to ping, or one was owed and on its way before and t was not the one
   about to ping. *)
Lemma ccinv_thr s i t t' q snd ctr ph sent lg :
  ccinv s -> nth_error (cthr s) i = Some t -> wf_cprog (ct_mine t') (ct_ops t') = true ->
  cdelivered s ++ q = sent -> snd + ct_mine t = csenders s + ct_mine t' ->
  (creg s = false -> snd = 0 /\ q = []) ->
  (creg s = true -> q <> [] \/ snd = 0 ->
   2 <= ctr \/ is_toping t' = true \/ (cq s <> [] \/ csenders s = 0) /\ cctr s <= ctr /\ is_toping t = false) ->
  ccinv (set_thr (mkCC q snd ctr (creg s) (cbound s) ph (cloop s) (cthr s) sent (cdelivered s) (cclosed s) lg) (upd_ct (cthr s) i t')).
Proof.
  intros (K1 & K2 & K3 & K4 & K5 & K6 & K7 & K8) En W H1 H2 H7 H4.
  destruct (thr_upd _ _ _ t' En K3 W) as (SU & NU & N1 & FU).
  ksplit; try assumption; [lia|].
  intros Hr Ha. destruct (H4 Hr Ha) as [H|[H|(A & B & C)]]; [left; exact H|right; left; rewrite H in N1; exact N1|].
  rewrite C in NU. apply (wp_mono s); [exact (K4 Hr A)|exact B|kcbn; lia|trivial].
Qed.

Lemma ccinv_ping s i t st ph lg : ccinv s -> nth_error (cthr s) i = Some t ->
  ccinv (set_thr (mkCC (cq s) (csenders s) (cctr s + INCREMENT_PING) (creg s) (cbound s) ph (cloop s) (cthr s) (csent s) (cdelivered s) (cclosed s) lg)
                 (upd_ct (cthr s) i (mkCT (ct_ops t) (ct_mine t) st))).
Proof.
  intros Hinv En. pose proof Hinv as (K1 & _ & K3 & _ & _ & _ & K7 & _).
  apply (ccinv_thr s i t); try assumption; [|reflexivity|intros _ _; left; unfold INCREMENT_PING; lia].
  rewrite Forall_forall in K3. apply (K3 t). eapply nth_error_In. exact En.
Qed.

(* a thread that is not about to ping moves on without touching the channel *)
Lemma ccinv_stall s i t ops st lg : ccinv s -> nth_error (cthr s) i = Some t -> is_toping t = false ->
  wf_cprog (ct_mine t) ops = true ->
  ccinv (set_thr (mkCC (cq s) (csenders s) (cctr s) (creg s) (cbound s) (cph s) (cloop s) (cthr s) (csent s) (cdelivered s) (cclosed s) lg)
                 (upd_ct (cthr s) i (mkCT ops (ct_mine t) st))).
Proof.
  intros Hinv En Hnt W. pose proof Hinv as (K1 & _ & _ & _ & _ & _ & K7 & _).
  apply (ccinv_thr s i t); try assumption; [reflexivity|]. intros _ Ha. right; right. split; [exact Ha|split; [lia|exact Hnt]].
Qed.

Lemma ccinv_enqueue s i t v ops st lg : ccinv s -> nth_error (cthr s) i = Some t -> creg s = true ->
  wf_cprog (ct_mine t) ops = true -> is_toping (mkCT ops (ct_mine t) st) = true ->
  ccinv (set_thr (mkCC (cq s ++ [v]) (csenders s) (cctr s) (creg s) (cbound s) (cph s) (cloop s) (cthr s) (csent s ++ [v]) (cdelivered s) (cclosed s) lg)
                 (upd_ct (cthr s) i (mkCT ops (ct_mine t) st))).
Proof.
  intros Hinv En Hreg W Hp. pose proof Hinv as (K1 & _).
  apply (ccinv_thr s i t); try assumption; [rewrite app_assoc, K1; reflexivity|reflexivity|congruence|auto].
Qed.

Lemma bsend_inv s i t v lg : ccinv s -> nth_error (cthr s) i = Some t -> is_toping t = false ->
  ccinv (let (s', t') := bsend_attempt s i t v lg in set_thr s' (upd_ct (cthr s) i t')).
Proof.
  intros Hinv En Hnt. pose proof Hinv as (_ & _ & K3 & _).
  assert (Wt : wf_cprog (ct_mine t) (ct_ops t) = true) by (rewrite Forall_forall in K3; apply K3; eapply nth_error_In; exact En).
  unfold bsend_attempt. destruct (negb (creg s)) eqn:Hreg; [|destruct (cc_full s)].
  - apply ccinv_stall; assumption.
  - apply ccinv_stall; assumption.
  - apply ccinv_enqueue; try assumption; [|reflexivity]. apply negb_false_iff. exact Hreg.
Qed.

Lemma ccinv_thread_step s i t : ccinv s -> nth_error (cthr s) i = Some t ->
  ccinv (let (s', t') := ct_step s i t in set_thr s' (upd_ct (cthr s) i t')).
Proof.
  intros Hinv En. pose proof Hinv as (K1 & K2 & K3 & _ & _ & _ & K7 & _).
  pose proof (csum_ge _ _ _ En) as SG.
  assert (Wt : wf_cprog (ct_mine t) (ct_ops t) = true) by (rewrite Forall_forall in K3; apply K3; eapply nth_error_In; exact En).
  assert (Hnt : match ct_stage t with CToPing | CToPingRelease | CToPingB | CB1 _ => True | _ => is_toping t = false end)
    by (unfold is_toping; destruct (ct_stage t); trivial).
  unfold ct_step. destruct (ct_stage t) eqn:Es.
  - (* idle: next operation *)
    destruct (ct_ops t) as [|o r] eqn:Eo.
    { (* finished *) kcbn. rewrite (upd_ct_same _ _ _ En). destruct s; exact Hinv. }
    (* the thread still holds a sender, so the receiver is alive *)
    assert (Wm : 0 < ct_mine t) by (destruct o; cbn in Wt; apply andb_prop in Wt as [Wm _]; apply N.ltb_lt; exact Wm).
    assert (Hreg : creg s = true).
    { destruct (creg s) eqn:E; [reflexivity|]. destruct (K7 eq_refl) as [A _]. lia. }
    destruct o as [v| | |v]; cbn in Wt; apply andb_prop in Wt as [_ Wr].
    + (* send *)
      replace (negb (creg s)) with false by (rewrite Hreg; reflexivity).
      destruct (cc_full s); [apply ccinv_stall|apply ccinv_enqueue]; try assumption; reflexivity.
    + (* clone *)
      apply (ccinv_thr s i t); try assumption; [cbn; lia|intros E; congruence|].
      intros _ [Ha|Ha]; [|lia]. right; right. split; [left; exact Ha|split; [lia|exact Hnt]].
    + (* drop a sender *)
      apply (ccinv_thr s i t); try assumption; [cbn; lia|intros E; congruence|].
      intros _ Ha. destruct (drop_pings s) eqn:Ed; [right; left; reflexivity|].
      assert (Hn1 : csenders s <> 1).
      { unfold drop_pings in Ed. destruct (cbound s); [apply N.eqb_neq; exact Ed|discriminate]. }
      destruct Ha as [Ha|Ha]; [|lia]. right; right. split; [left; exact Ha|split; [lia|exact Hnt]].
    + (* blocking send: its try_send *)
      replace (negb (creg s)) with false by (rewrite Hreg; reflexivity).
      destruct (cc_full s); [apply ccinv_stall|apply ccinv_enqueue]; try assumption; reflexivity.
  - (* the ping after an enqueue *) apply ccinv_ping; assumption.
  - (* the ping of a dropped sender, which then releases its Ping handle *) apply ccinv_ping; assumption.
  - (* the close marker written by the thread that released the last Ping handle *)
    apply (ccinv_thr s i t); try assumption; [reflexivity|].
    intros _ Ha. right; right. split; [exact Ha|split; [lia|exact Hnt]].
  - (* the ping after the enqueue of a blocking send *) apply ccinv_ping; assumption.
  - (* the ping of the failed try_send inside a blocking send *) apply ccinv_ping; assumption.
  - (* the blocking mpsc send *)
    apply bsend_inv; assumption.
  - (* blocked in it *)
    destruct (cc_full s && creg s).
    + kcbn. rewrite (upd_ct_same _ _ _ En). destruct s; exact Hinv.
    + apply bsend_inv; assumption.
Qed.

Lemma ccinv_step s k : ccinv s -> ccinv (cc_step s k).
Proof.
  intros H. destruct k as [|i]; cbn [cc_step]; [apply ccinv_loop_step; exact H|].
  destruct (nth_error (cthr s) i) as [t|] eqn:En; [|exact H]. apply ccinv_thread_step; assumption.
Qed.

Lemma csum_init progs : csum (map (fun p => mkCT p 1 CIdle) progs) = N.of_nat (length progs).
Proof. induction progs as [|p r IH]; cbn [map csum length ct_mine]; [reflexivity|]. rewrite IH. lia. Qed.

Lemma ccinv_init b progs nd : progs <> [] -> Forall (fun p => wf_cprog 1 p = true) progs -> ccinv (cc_init b progs nd).
Proof.
  intros Hne H. unfold cc_init. ksplit.
  - reflexivity.
  - rewrite csum_init. reflexivity.
  - apply Forall_forall. intros t Ht. apply in_map_iff in Ht as [p [<- Hp]]. rewrite Forall_forall in H. apply H. exact Hp.
  - intros _ [Ha|Ha]; [exfalso; apply Ha; reflexivity|]. destruct progs; [contradiction|cbn [length] in Ha; lia].
  - lia.
  - split; intros Hd; discriminate.
  - intros Hd; discriminate.
  - intros Hd; discriminate.
Qed.

Lemma ccinv_run b progs nd sched : progs <> [] -> Forall (fun p => wf_cprog 1 p = true) progs -> ccinv (cc_run b progs nd sched).
Proof.
  intros Hne H. unfold cc_run. generalize (ccinv_init b progs nd Hne H). generalize (cc_init b progs nd).
  induction sched as [|k r IH]; intros s Hs; cbn; [exact Hs|]. apply IH. apply ccinv_step. exact Hs.
Qed.

(* a readable eventfd of the registered channel makes the next poll lead to a drain *)
Lemma cc_poll_progress s d : creg s = true -> 2 <= cctr s -> cloop s = mkCL (S d) CLIdle ->
  cl_stage (cloop (cl_step s)) = CLDrain.
Proof.
  intros Hr Hc Hl. unfold cl_step. rewrite Hl. cbn. rewrite Hr. destruct (N.ltb_spec 0 (cctr s)); [reflexivity|lia].
Qed.
