(* C16 at the level of Generic: after ANY history of new / set / register / reregister / unregister / unwrap / drop - including
   registrations that fail because two Generics wrap one fd - the poller's table holds exactly the fds of the registered
   Generics, each with the key, interest and mode it last (re)registered; nothing stale, nothing missing. *)
From CV Require Import Base Token Env Loop GenLife.
From CVP Require Import Env_lemmas Seq_lemmas.
Import ListNotations.
Open Scope N_scope.

Lemma ep_find_fd tbl : forall fd e, ep_find tbl fd = Some e -> e_fd e = fd.
Proof. induction tbl as [|x t IH]; intros fd e H; cbn in H; [discriminate|]. destruct (N.eqb_spec (e_fd x) fd) as [E|]; [injection H as <-; exact E|apply IH; exact H]. Qed.

Definition registered (gn : gen) : Prop := g_tok gn <> None.
Record INVG (s : gst) : Prop := {
  ig_obj : forall g gn, gl_gens s g = Some gn ->
             match g_tok gn with
             | Some t => g_poller gn = true /\ exists ent, ep_find (epoll (gl_env s)) (g_fd gn) = Some ent /\ e_key ent = pack t /\
                                                        gl_last s g = Some (e_int ent, e_mode ent, e_key ent)
             | None => g_poller gn = false /\ gl_last s g = None
             end;
  ig_tbl : forall fd ent, ep_find (epoll (gl_env s)) fd = Some ent -> exists g gn, gl_gens s g = Some gn /\ g_fd gn = fd /\ registered gn;
  ig_uniq : forall g1 g2 gn1 gn2, gl_gens s g1 = Some gn1 -> gl_gens s g2 = Some gn2 -> registered gn1 -> registered gn2 ->
             g_fd gn1 = g_fd gn2 -> g1 = g2;
  ig_none : forall g, gl_gens s g = None -> gl_last s g = None }.

Lemma INVG_init : INVG gl_init.
Proof. split; intros; try discriminate; reflexivity. Qed.

(* One object g changes while the table stays as it is and g is registered exactly as before: on the same fd with the same
   token, or not at all. `last'` need only agree with gl_last pointwise. *)
Lemma INVG_same_table s g v last' : INVG s -> (forall g', last' g' = gl_last s g') ->
  match gl_gens s g, v with
  | Some a, Some b => g_fd b = g_fd a /\ g_tok b = g_tok a /\ g_poller b = g_poller a
  | Some a, None => g_tok a = None
  | None, Some b => g_tok b = None /\ g_poller b = false
  | None, None => True
  end ->
  INVG (mkG (gl_env s) (fupd (gl_gens s) g v) last').
Proof.
  intros [A B C D] Hl Hv.
  assert (X : forall g1 gn1, fupd (gl_gens s) g v g1 = Some gn1 -> registered gn1 ->
                exists a, gl_gens s g1 = Some a /\ g_fd a = g_fd gn1 /\ registered a).
  { intros g1 gn1 H R. unfold fupd in H. destruct (N.eqb_spec g1 g) as [->|]; [|exists gn1; auto].
    subst v. unfold registered in *. destruct (gl_gens s g) as [a|]; [|destruct Hv; congruence].
    destruct Hv as (Hf & Ht & _). exists a. rewrite <- Hf, <- Ht. auto. }
  split; cbn [gl_env gl_gens gl_last].
  - intros g' gn H. rewrite Hl. unfold fupd in H. destruct (N.eqb_spec g' g) as [->|]; [|apply A; exact H].
    subst v. destruct (gl_gens s g) as [a|] eqn:Eg.
    + destruct Hv as (Hf & Ht & Hp). rewrite Hf, Ht, Hp. apply (A g a Eg).
    + destruct Hv as [Ht Hp]. rewrite Ht. split; [exact Hp|apply D; exact Eg].
  - intros fd ent H. destruct (B fd ent H) as (g1 & gn1 & H1 & H2 & H3). unfold fupd.
    destruct (N.eqb_spec g1 g) as [->|]; [|exists g1, gn1; rewrite (proj2 (N.eqb_neq g1 g)); auto].
    exists g. rewrite N.eqb_refl. rewrite H1 in Hv. destruct v as [b|]; [|destruct (H3 Hv)].
    destruct Hv as (Hf & Ht & _). exists b. unfold registered in *. rewrite Hf, Ht. auto.
  - intros g1 g2 gn1 gn2 H1 H2 R1 R2 E.
    destruct (X g1 gn1 H1 R1) as (a1 & G1 & F1 & Q1). destruct (X g2 gn2 H2 R2) as (a2 & G2 & F2 & Q2).
    apply (C g1 g2 a1 a2 G1 G2 Q1 Q2). congruence.
  - intros g' H. rewrite Hl. unfold fupd in H. destruct (N.eqb_spec g' g) as [E|]; [subst g' v|apply D; exact H].
    destruct (gl_gens s g) as [a|] eqn:Eg; [|apply D; exact Eg]. pose proof (A g a Eg) as A0. rewrite Hv in A0. apply A0.
Qed.

(* One object g, which exists as gn0, changes, and the table changes at most at gn0's fd. That fd was g's own or free before,
   so that no other registered object sits on it; afterwards it holds what g has registered, or nothing. *)
Lemma INVG_at_fd s g gn0 e' v l : INVG s -> gl_gens s g = Some gn0 ->
  (forall fd', fd' <> g_fd gn0 -> ep_find (epoll e') fd' = ep_find (epoll (gl_env s)) fd') ->
  registered gn0 \/ ep_find (epoll (gl_env s)) (g_fd gn0) = None ->
  match v with
  | Some gn => g_fd gn = g_fd gn0 /\
      match g_tok gn with
      | Some t => g_poller gn = true /\ exists ent, ep_find (epoll e') (g_fd gn0) = Some ent /\ e_key ent = pack t /\
                                                    l = Some (e_int ent, e_mode ent, e_key ent)
      | None => g_poller gn = false /\ l = None /\ ep_find (epoll e') (g_fd gn0) = None
      end
  | None => l = None /\ ep_find (epoll e') (g_fd gn0) = None
  end ->
  INVG (mkG e' (fupd (gl_gens s) g v) (fupd (gl_last s) g l)).
Proof.
  intros [A B C D] Eg Hoth Hwas Hv.
  assert (Hfree : forall g' gn', g' <> g -> gl_gens s g' = Some gn' -> registered gn' -> g_fd gn' <> g_fd gn0).
  { intros g' gn' n H R E. destruct Hwas as [R0|Hnone]; [apply n; exact (C g' g gn' gn0 H Eg R R0 E)|].
    pose proof (A g' gn' H) as A1. unfold registered in R. destruct (g_tok gn'); [|congruence].
    destruct A1 as (_ & ent & F & _). rewrite E, Hnone in F. discriminate. }
  split; cbn [gl_env gl_gens gl_last]; unfold fupd.
  - intros g' gn H. destruct (N.eqb_spec g' g) as [->|n].
    + subst v. destruct Hv as [Ef Hv]. destruct (g_tok gn); [rewrite Ef; exact Hv|split; apply Hv].
    + pose proof (A g' gn H) as A1. destruct (g_tok gn) as [t|] eqn:Et; [|exact A1]. destruct A1 as (P & ent & F & K).
      split; [exact P|]. exists ent. split; [|exact K]. rewrite Hoth; [exact F|].
      apply (Hfree g' gn n H). unfold registered. congruence.
  - intros fd ent H. destruct (N.eq_dec fd (g_fd gn0)) as [->|Hne].
    + exists g. rewrite N.eqb_refl. destruct v as [gn|]; [|destruct Hv; congruence]. destruct Hv as [Ef Hv].
      exists gn. split; [reflexivity|]. split; [exact Ef|]. unfold registered. destruct (g_tok gn); [discriminate|].
      destruct Hv as (_ & _ & Hn). congruence.
    + rewrite Hoth in H by exact Hne. destruct (B fd ent H) as (g1 & gn1 & H1 & H2 & H3). exists g1, gn1.
      destruct (N.eqb_spec g1 g) as [->|]; [congruence|auto].
  - intros g1 g2 gn1 gn2 H1 H2 R1 R2 E. destruct (N.eqb_spec g1 g) as [->|n1]; destruct (N.eqb_spec g2 g) as [->|n2]; try reflexivity.
    + subst v. destruct Hv as [Ef _]. destruct (Hfree g2 gn2 n2 H2 R2). congruence.
    + subst v. destruct Hv as [Ef _]. destruct (Hfree g1 gn1 n1 H1 R1). congruence.
    + eapply C; eassumption.
  - intros g' H. destruct (N.eqb_spec g' g) as [E|]; [subst v; apply Hv|apply D; exact H].
Qed.

(* Drop, and unwrap, which is the same function *)
Lemma INVG_drop s g gn0 : INVG s -> gl_gens s g = Some gn0 ->
  INVG (mkG (gen_drop (gl_env s) gn0) (fupd (gl_gens s) g None) (fupd (gl_last s) g None)).
Proof.
  intros I Eg. pose proof (ig_obj s I g gn0 Eg) as A0. destruct (g_tok gn0) as [t0|] eqn:Et0.
  - destruct A0 as (P & _). destruct (gen_drop_spec (gl_env s) gn0 P) as [Hgone Hoth].
    apply (INVG_at_fd s g gn0); [exact I|exact Eg|exact Hoth|left; unfold registered; congruence|split; [reflexivity|exact Hgone]].
  - destruct A0 as (P & L). unfold gen_drop. rewrite P. apply INVG_same_table; [exact I| |rewrite Eg; exact Et0].
    intros g'. unfold fupd. destruct (N.eqb_spec g' g) as [->|]; [symmetry; exact L|reflexivity].
Qed.

Lemma INVG_step s o : INVG s -> INVG (fst (gl_step s o)).
Proof.
  intros I. destruct o as [g fd it m|g it m|g k|g k|g|g|g]; cbn [gl_step].
  - (* new *) destruct (gl_gens s g) as [gn0|] eqn:Eg; [exact I|].
    apply INVG_same_table; [exact I|reflexivity|rewrite Eg; split; reflexivity].
  - (* set *) destruct (gl_gens s g) as [gn0|] eqn:Eg; [|exact I].
    apply INVG_same_table; [exact I|reflexivity|rewrite Eg; cbn; auto].
  - (* register: ep_add succeeded, so the fd was free *) destruct (gl_gens s g) as [gn0|] eqn:Eg; [|exact I]. unfold gen_register.
    pose proof (ep_add_spec (epoll (gl_env s)) (g_fd gn0) (g_int gn0) (g_mode gn0) (pack (mkTok 0 0 k)) (fdc (gl_env s) (g_fd gn0))) as S.
    destruct (ep_add _ _ _ _ _ _) as [tbl|]; [|exact I]. destruct S as (Hnone & [q Hq] & Hoth).
    apply (INVG_at_fd s g gn0); [exact I|exact Eg|exact Hoth|right; exact Hnone|].
    split; [reflexivity|]. split; [reflexivity|]. eexists. split; [exact Hq|]. split; reflexivity.
  - (* reregister *) destruct (gl_gens s g) as [gn0|] eqn:Eg; [|exact I]. destruct (g_tok gn0) as [t0|] eqn:Et0; [|exact I].
    unfold gen_reregister.
    pose proof (ep_mod_spec (epoll (gl_env s)) (g_fd gn0) (g_int gn0) (g_mode gn0) (pack (mkTok 0 0 k)) (fdc (gl_env s) (g_fd gn0))) as S.
    destruct (ep_mod _ _ _ _ _ _) as [tbl|]; [|exact I]. destruct (S tbl eq_refl) as (_ & [q Hq] & Hoth).
    pose proof (ig_obj s I g gn0 Eg) as A0. rewrite Et0 in A0. destruct A0 as (P0 & _).
    apply (INVG_at_fd s g gn0); [exact I|exact Eg|exact Hoth|left; unfold registered; congruence|].
    split; [reflexivity|]. split; [exact P0|]. eexists. split; [exact Hq|]. split; reflexivity.
  - (* unregister *) destruct (gl_gens s g) as [gn0|] eqn:Eg; [|exact I]. destruct (g_tok gn0) as [t0|] eqn:Et0; [|exact I].
    unfold gen_unregister. pose proof (ep_del_spec (epoll (gl_env s)) (g_fd gn0)) as S.
    destruct (ep_del _ _) as [tbl|]; [|exact I]. destruct (S tbl eq_refl) as (Hgone & Hoth).
    apply (INVG_at_fd s g gn0); [exact I|exact Eg|exact Hoth|left; unfold registered; congruence|].
    split; [reflexivity|]. split; [reflexivity|]. split; [reflexivity|exact Hgone].
  - (* unwrap *) destruct (gl_gens s g) as [gn0|] eqn:Eg; [exact (INVG_drop s g gn0 I Eg)|exact I].
  - (* drop *) destruct (gl_gens s g) as [gn0|] eqn:Eg; [exact (INVG_drop s g gn0 I Eg)|exact I].
Qed.

Theorem INVG_exec ops : INVG (gl_exec ops).
Proof.
  unfold gl_exec. assert (H : forall s, INVG s -> INVG (fold_left (fun s o => fst (gl_step s o)) ops s)).
  { induction ops as [|o r IH]; intros s Hs; cbn; [exact Hs|]. apply IH. apply INVG_step. exact Hs. }
  apply H. apply INVG_init.
Qed.

(* exactly: every entry of the table belongs to a registered Generic and shows what that Generic last (re)registered; every
   registered Generic has its entry; a Generic that is not registered has recorded nothing *)
Theorem table_exact ops : let s := gl_exec ops in
  (forall fd ent, ep_find (epoll (gl_env s)) fd = Some ent ->
     exists g gn, gl_gens s g = Some gn /\ g_fd gn = fd /\ registered gn /\ gl_last s g = Some (e_int ent, e_mode ent, e_key ent)) /\
  (forall g gn, gl_gens s g = Some gn -> registered gn ->
     exists ent, ep_find (epoll (gl_env s)) (g_fd gn) = Some ent /\ gl_last s g = Some (e_int ent, e_mode ent, e_key ent)) /\
  (forall g1 g2 gn1 gn2, gl_gens s g1 = Some gn1 -> gl_gens s g2 = Some gn2 -> registered gn1 -> registered gn2 ->
     g_fd gn1 = g_fd gn2 -> g1 = g2).
Proof.
  cbv zeta. destruct (INVG_exec ops) as [A B C D]. split; [|split; [|exact C]].
  - intros fd ent H. destruct (B fd ent H) as (g & gn & Hg & Hf & R). exists g, gn. split; [exact Hg|]. split; [exact Hf|]. split; [exact R|].
    pose proof (A g gn Hg) as A1. unfold registered in R. destruct (g_tok gn) as [t|]; [|congruence].
    destruct A1 as (_ & ent' & F & _ & L). rewrite Hf in F. rewrite H in F. injection F as <-. exact L.
  - intros g gn Hg R. pose proof (A g gn Hg) as A1. unfold registered in R. destruct (g_tok gn) as [t|]; [|congruence].
    destruct A1 as (_ & ent & F & _ & L). exists ent. split; assumption.
Qed.

(* by the time a registered Generic has been unregistered, unwrapped or dropped its fd is gone from the table ... *)
Lemma released_fd_gone s o g gn : INVG s -> gl_gens s g = Some gn -> registered gn ->
  (o = GUnreg g \/ o = GUnwrap g \/ o = GDrop g) -> snd (gl_step s o) = G_OK ->
  ep_find (epoll (gl_env (fst (gl_step s o)))) (g_fd gn) = None.
Proof.
  intros I Hg R Ho Hok. pose proof (ig_obj s I g gn Hg) as A0. unfold registered in R.
  destruct (g_tok gn) as [t|] eqn:Et; [|congruence]. destruct A0 as (P & _).
  destruct Ho as [-> | [-> | ->]]; cbn [gl_step] in *; rewrite Hg in *.
  - rewrite Et in *. unfold gen_unregister in *. destruct (ep_del _ _) as [tbl|] eqn:Ed; [|discriminate]. apply (ep_del_spec _ _ _ Ed).
  - apply gen_drop_spec. exact P.
  - apply gen_drop_spec. exact P.
Qed.
(* ... so a fresh Generic over the same fd registers without error *)
Theorem released_fd_reinsertable ops o g gn g2 it m k :
  let s := gl_exec ops in gl_gens s g = Some gn -> registered gn -> (o = GUnreg g \/ o = GUnwrap g \/ o = GDrop g) ->
  snd (gl_step s o) = G_OK -> g2 <> g -> gl_gens s g2 = None ->
  let s1 := fst (gl_step s o) in let s2 := fst (gl_step s1 (GNew g2 (g_fd gn) it m)) in
  snd (gl_step s2 (GReg g2 k)) = G_OK.
Proof.
  cbv zeta. intros Hg R Ho Hok Hne Hn.
  pose proof (released_fd_gone _ o g gn (INVG_exec ops) Hg R Ho Hok) as Gone.
  set (s1 := fst (gl_step (gl_exec ops) o)) in *.
  assert (N1 : gl_gens s1 g2 = None).
  { unfold s1. destruct Ho as [-> | [-> | ->]]; cbn [gl_step]; rewrite Hg.
    - destruct (g_tok gn); [|exact Hn]. destruct (gen_unregister _ _) as [[ok gn'] e']. destruct ok; cbn [fst gl_gens]; [|exact Hn].
      unfold fupd. destruct (N.eqb_spec g2 g); [contradiction|exact Hn].
    - cbn [fst gl_gens]. unfold fupd. destruct (N.eqb_spec g2 g); [contradiction|exact Hn].
    - cbn [fst gl_gens]. unfold fupd. destruct (N.eqb_spec g2 g); [contradiction|exact Hn]. }
  cbn [gl_step]. rewrite N1. cbn [fst gl_step gl_gens gl_env]. unfold fupd at 1. rewrite N.eqb_refl.
  unfold gen_register. cbn [g_fd g_int g_mode]. unfold ep_add. rewrite Gone. reflexivity.
Qed.
