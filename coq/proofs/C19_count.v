From CV Require Import Base Signals.
Open Scope N_scope.

(* conservation over whole histories: every report to the callback and every handler run consumes its own raise - no signal is
   reported twice for one raise, none is invented (standard signals coalesce, so raises may outnumber the reports) *)
Fixpoint cnt (x : sig) (l : list sig) : N := match l with [] => 0 | y :: r => (if sig_eqb y x then 1 else 0) + cnt x r end.
Definition raised (x : sig) (ops : list sop) : N :=
  fold_right (fun o n => match o with SRaise y => if sig_eqb y x then 1 + n else n | _ => n end) 0 ops.
Definition bal (st : sst) (x : sig) : N := cnt x (reported st) + handled st x + (if pending st x then 1 else 0).

Lemma cnt_app x a b : cnt x (a ++ b) = cnt x a + cnt x b.
Proof. induction a as [|y a IH]; cbn [cnt app]; [reflexivity|rewrite IH; lia]. Qed.
Lemma cnt_filter_all x f : cnt x (filter f all_sigs) = if f x then 1 else 0.
Proof. destruct x; unfold all_sigs; cbn [filter]; destruct (f SHUP), (f SUSR1), (f SUSR2), (f SCONT), (f SURG), (f SWINCH); reflexivity. Qed.
Lemma deliver_bal st u x : let '(h, p) := deliver st u in h x + (if p x then 1 else 0) = handled st x + (if pending st x then 1 else 0).
Proof. unfold deliver, s_diff. destruct (u x), (pending st x); cbn; lia. Qed.

Lemma bal_step st o x : bal (s_step st o) x <= bal st x + (match o with SRaise y => if sig_eqb y x then 1 else 0 | _ => 0 end).
Proof.
  unfold bal. destruct o; cbn [s_step].
  - destruct (alive st); cbn [reported handled pending]; lia.
  - destruct (negb (alive st)); cbn [reported handled pending]; lia.
  - destruct (negb (alive st)); [lia|]. pose proof (deliver_bal st (s_of_list l) x) as D.
    destruct (deliver st (s_of_list l)) as [h p]. cbn [reported handled pending]. lia.
  - destruct (negb (alive st)); [lia|]. pose proof (deliver_bal st (s_diff (mask st) (s_of_list l)) x) as D.
    destruct (deliver st (s_diff (mask st) (s_of_list l))) as [h p]. cbn [reported handled pending]. lia.
  - destruct (negb (alive st)); [lia|]. pose proof (deliver_bal st (mask st) x) as D.
    destruct (deliver st (mask st)) as [h p]. cbn [reported handled pending]. lia.
  - destruct (blocked st x0); cbn [reported handled pending]; unfold s_union.
    + unfold sig_eqb. rewrite (N.eqb_sym (sig_num x) (sig_num x0)).
      destruct (pending st x), (sig_num x0 =? sig_num x); cbn; lia.
    + unfold sig_eqb. rewrite (N.eqb_sym (sig_num x) (sig_num x0)). destruct (sig_num x0 =? sig_num x); lia.
  - destruct (negb (alive st)); [lia|]. cbn [reported handled pending]. rewrite cnt_app, cnt_filter_all. unfold s_diff.
    destruct (pending st x), (sfd st x); cbn; lia.
Qed.
Lemma bal_run ops : forall st x, bal (fold_left s_step ops st) x <= bal st x + raised x ops.
Proof.
  induction ops as [|o ops IH]; intros st x; cbn [fold_left raised fold_right]; [lia|].
  specialize (IH (s_step st o) x). pose proof (bal_step st o x) as B. fold (raised x ops).
  destruct o; try lia. destruct (sig_eqb x0 x); lia.
Qed.
Theorem reports_and_handlers_never_exceed_raises ops x :
  cnt x (reported (s_run ops)) + handled (s_run ops) x + (if pending (s_run ops) x then 1 else 0) <= raised x ops.
Proof. pose proof (bal_run ops s_init x) as H. unfold bal at 2 in H. cbn in H. exact H. Qed.
(* one dispatch reports a signal at most once *)
Lemma dispatch_got_once st x : alive st = true -> cnt x (reported (s_step st SDispatch)) <= cnt x (reported st) + 1.
Proof. intros Ha. cbn [s_step]. rewrite Ha. cbn [negb reported]. rewrite cnt_app, cnt_filter_all. destruct (_ && _); lia. Qed.
