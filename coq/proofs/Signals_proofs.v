From CV Require Import Base Signals.
Open Scope N_scope.

(* invariant: exactly the configured signals are blocked and watched by the signalfd; pending signals are blocked *)
Definition sinv (st : sst) : Prop :=
  (forall x, blocked st x = mask st x) /\ (forall x, sfd st x = mask st x) /\ (forall x, pending st x = true -> blocked st x = true) /\
  (alive st = false -> forall x, mask st x = false).

Lemma sig_eqb_eq a b : sig_eqb a b = true <-> a = b.
Proof. destruct a, b; cbn; split; intros H; try reflexivity; try discriminate. Qed.

Lemma sinv_step st o : sinv st -> sinv (s_step st o).
Proof.
  intros Hinv. pose proof Hinv as (A & B & C & D). destruct o; cbn [s_step].
  - destruct (alive st) eqn:E; [exact Hinv|].
    specialize (D eq_refl). unfold sinv; cbn. repeat split.
    + intros x. unfold s_union. rewrite A, D. reflexivity.
    + intros x H. unfold s_union. rewrite (C x H). reflexivity.
    + discriminate.
  - destruct (alive st) eqn:E; cbn [negb]; [|exact Hinv].
    unfold sinv; cbn. repeat split.
    + intros x. unfold s_union. rewrite A. destruct (mask st x); reflexivity.
    + intros x H. unfold s_union. rewrite (C x H). reflexivity.
    + discriminate.
  - destruct (alive st) eqn:E; cbn [negb]; [|exact Hinv].
    unfold deliver. unfold sinv; cbn. repeat split.
    + intros x. unfold s_diff. rewrite A. reflexivity.
    + intros x. unfold s_diff. intros H. apply andb_prop in H as [H1 H2]. rewrite (C x H1), H2. reflexivity.
    + discriminate.
  - destruct (alive st) eqn:E; cbn [negb]; [|exact Hinv].
    unfold deliver. unfold sinv; cbn. repeat split.
    + intros x. unfold s_union, s_diff. rewrite A. destruct (mask st x), (s_of_list l x); reflexivity.
    + intros x. unfold s_diff, s_union. intros H. apply andb_prop in H as [H1 H2].
      pose proof (C x H1) as Hb. rewrite Hb. rewrite A in Hb. rewrite Hb in H2 |- *. cbn in *.
      destruct (s_of_list l x); cbn in *; [reflexivity|discriminate].
    + discriminate.
  - destruct (alive st) eqn:E; cbn [negb]; [|exact Hinv].
    unfold deliver. unfold sinv; cbn. repeat split.
    + intros x. unfold s_diff, s_empty. rewrite A. destruct (mask st x); reflexivity.
    + intros x. unfold s_diff. intros H. apply andb_prop in H as [H1 H2].
      pose proof (C x H1) as Hb. rewrite A in Hb. rewrite Hb in H2. discriminate.
  - destruct (blocked st x) eqn:E; unfold sinv; cbn; repeat split; try assumption.
    intros y. unfold s_union. intros H. apply orb_prop in H as [H|H]; [apply C; exact H|].
    apply sig_eqb_eq in H. subst y. exact E.
  - destruct (alive st) eqn:E; cbn [negb]; [|exact Hinv].
    unfold sinv; cbn. repeat split; try assumption; try discriminate.
    intros x. unfold s_diff. intros H. apply andb_prop in H as [H1 _]. apply C; exact H1.
Qed.

Lemma sinv_init : sinv s_init.
Proof. unfold sinv; cbn. repeat split; try reflexivity. intros x H; discriminate. Qed.

Lemma sinv_run ops : sinv (s_run ops).
Proof.
  unfold s_run. generalize sinv_init. generalize s_init.
  induction ops as [|o r IH]; intros st H; cbn; [exact H|]. apply IH. apply sinv_step. exact H.
Qed.

Lemma nil_filter (f : sig -> bool) : (forall x, f x = false) -> filter f all_sigs = [].
Proof. intros G. induction all_sigs as [|a t IH]; cbn; [reflexivity|]. rewrite G. exact IH. Qed.

(* a pending signal that stays configured across a call is never handed to the ordinary handler *)
Lemma escaped_step st o : escaped (s_step st o) = escaped st.
Proof.
  destruct o; cbn [s_step]; try (destruct (alive st); cbn [negb]; reflexivity).
  - destruct (alive st); cbn [negb]; [|reflexivity]. unfold deliver. cbn [escaped].
    rewrite nil_filter; [apply app_nil_r|].
    intros x. unfold s_diff. destruct (s_of_list l x), (pending st x), (mask st x); reflexivity.
  - destruct (alive st); cbn [negb]; [|reflexivity]. unfold deliver. cbn [escaped].
    rewrite nil_filter; [apply app_nil_r|].
    intros x. unfold s_diff. destruct (s_of_list l x), (pending st x), (mask st x); reflexivity.
  - destruct (blocked st x); reflexivity.
Qed.
Lemma escaped_run ops : escaped (s_run ops) = [].
Proof.
  unfold s_run. assert (H : escaped s_init = []) by reflexivity. revert H. generalize s_init.
  induction ops as [|o r IH]; intros st H; cbn; [exact H|]. apply IH. rewrite escaped_step. exact H.
Qed.

(* the source only ever reports configured signals, each pending instance once *)
Lemma dispatch_reports st : sinv st -> alive st = true ->
  let st' := s_step st SDispatch in
  (exists got, reported st' = reported st ++ got /\ (forall x, In x got -> mask st x = true /\ pending st x = true) /\
               (forall x, mask st x = true -> pending st x = true -> In x got)) /\
  (forall x, mask st x = true -> pending st' x = false).
Proof.
  intros (A & B & C & D) Ha. cbn [s_step]. rewrite Ha. cbn [negb]. cbn [reported pending mask]. split.
  - eexists. split; [reflexivity|]. split.
    + intros x H. apply filter_In in H as [_ H]. apply andb_prop in H as [H1 H2]. rewrite B in H2. split; assumption.
    + intros x Hm Hp. apply filter_In. split; [destruct x; cbn; tauto|]. rewrite Hp, B, Hm. reflexivity.
  - intros x Hm. unfold s_diff. rewrite B, Hm. destruct (pending st x); reflexivity.
Qed.

(* the former finding F8 (set_signals) on the repaired code: the pending, still configured signal is reported *)
Lemma f8_fixed :
  let st := s_run [SNew [SUSR1]; SRaise SUSR1; SSet [SUSR1; SUSR2]; SDispatch] in
  escaped st = [] /\ reported st = [SUSR1] /\ handled st SUSR1 = 0.
Proof. vm_compute. repeat split. Qed.
