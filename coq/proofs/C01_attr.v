(* C01, whole histories: callbacks are attributable. The callback counter of an object changes only while an event whose token
   resolved to that object (generation-checked) is being processed; operations and idles never run a source callback (nor do
   the lifecycle loops: Loop_frames.before_sleep_loop_writes, before_handle_loop_writes). Together with C06_token_dead_forever: a removed source is never called back through a stale token. *)
From CV Require Import Base Token Env Loop.
From CVP Require Import Loop_frames Loop_walk.
Open Scope N_scope.

Notation cbc := Loop.cbn.

Lemma cbc_set_obj_src s o x : cbc (set_obj_src s o x) = cbc s.
Proof. unfold set_obj_src. destruct (objs s o); reflexivity. Qed.
Lemma cbc_regop s o x k b : cbc (regop s o x k b) = cbc s.
Proof. unfold regop. destruct x; reflexivity. Qed.
Lemma cbc_disp_register s o t : cbc (snd (disp_register s o t)) = cbc s.
Proof.
  unfold disp_register. destruct (objs s o) as [ob|]; [|reflexivity]. destruct (is_running s o); [reflexivity|].
  destruct (src_register _ _ _) as [[r x'] e1]. destruct r; cbn [snd]; try destruct (src_lc x'); cbn [Loop.cbn set_lifecycle panic set_halted emit set_log];
    rewrite ?cbc_regop, ?cbc_set_obj_src; reflexivity.
Qed.
Lemma cbc_disp_reregister s o t : cbc (snd (disp_reregister s o t)) = cbc s.
Proof.
  unfold disp_reregister. destruct (objs s o) as [ob|]; [|reflexivity]. destruct (is_running s o); [reflexivity|].
  destruct (src_reregister _ _ _) as [[r x'] e1]. destruct r; cbn [snd]; try destruct (src_lc x'); cbn [Loop.cbn set_lifecycle panic set_halted emit set_log];
    rewrite ?cbc_regop, ?cbc_set_obj_src; reflexivity.
Qed.
Lemma cbc_disp_unregister s o t : cbc (snd (disp_unregister s o t)) = cbc s.
Proof.
  unfold disp_unregister. destruct (objs s o) as [ob|]; [|reflexivity]. destruct (is_running s o); [reflexivity|].
  destruct (src_unregister _ _) as [[ok x'] e1]. cbn [snd]. destruct (src_lc x'); cbn [Loop.cbn set_lifecycle]; rewrite ?cbc_regop, ?cbc_set_obj_src; reflexivity.
Qed.
Lemma cbc_maybe_drop s o : cbc (maybe_drop s o) = cbc s.
Proof. unfold maybe_drop, drop_obj. destruct (objs s o) as [ob|]; [|reflexivity]. destruct (o_ext ob || in_slots (slots s) o); [reflexivity|]. destruct (is_running s o); reflexivity. Qed.
Lemma cbc_drop_zombies l : forall s, cbc (drop_zombies s l) = cbc s.
Proof. induction l as [|o r IH]; intros s; cbn [drop_zombies]; [reflexivity|]. rewrite IH. apply cbc_maybe_drop. Qed.
Lemma cbc_end_processing s o : cbc (end_processing s o) = cbc s.
Proof. unfold end_processing. rewrite cbc_drop_zombies, cbc_maybe_drop. reflexivity. Qed.

(* no operation runs a source callback *)
Lemma astep_cbc a s s' : astep a s s' -> cbc s' = cbc s.
Proof.
  destruct 1; try reflexivity; [apply cbc_disp_register|apply cbc_disp_reregister|apply cbc_disp_unregister|apply cbc_maybe_drop|
    apply cbc_set_obj_src|apply cbc_set_obj_src].
Qed.
Lemma cbc_exec_action s a : cbc (exec_action s a) = cbc s.
Proof. apply (star_incl (fun a b => cbc b = cbc a) (astep a)); [reflexivity|intros; congruence|apply astep_cbc|apply exec_action_astar]. Qed.
Lemma cbc_exec_actions l : forall s, cbc (exec_actions s l) = cbc s.
Proof. unfold exec_actions. induction l as [|a l IH]; intros s; cbn [fold_left]; [reflexivity|]. rewrite IH. apply cbc_exec_action. Qed.

Lemma cstep_cbc_other ok h o' s s' : o' <> h -> cstep ok h s s' -> cbc s' o' = cbc s o'.
Proof.
  intros Hne []; try reflexivity; rewrite ?cbc_set_obj_src; try reflexivity.
  - cbn. unfold fupd. destruct (N.eqb_spec o' h); [contradiction|reflexivity].
  - rewrite cbc_exec_action. reflexivity.
Qed.
Lemma cbc_obj_process_other scr s o ev o' : is_running s o = true -> o' <> o -> cbc (fst (obj_process scr s o ev)) o' = cbc s o'.
Proof.
  intros Hr Hne. apply (star_incl (fun a b => cbc b o' = cbc a o') (cstep (fun _ => True) o)); [reflexivity|intros; congruence| |].
  - intros a b. apply cstep_cbc_other. exact Hne.
  - apply obj_process_star; [apply scripts_ok_True|exact Hr].
Qed.

Lemma cbc_apply_post s o reg r : cbc (snd (apply_post s o reg r)) = cbc s.
Proof.
  unfold apply_post. destruct r.
  - reflexivity.
  - pose proof (cbc_disp_reregister s o reg) as F. destruct (disp_reregister s o reg) as [[rs d] sx]. exact F.
  - pose proof (cbc_disp_unregister s o reg) as F. destruct (disp_unregister s o reg) as [[rs d] sx]. exact F.
  - cbn [snd]. destruct (slot_get (slots s) reg); reflexivity.
Qed.

(* what follows process_events in an iteration (post action, deferred unregistration, end of processing) does not touch the counters *)
Theorem process_event_keeps_count_of_obj_process scr s ev sl o :
  slot_get (slots s) (forget_sub_id (unpack (ev_key ev))) = Some sl -> s_obj sl = Some o ->
  cbc (fst (process_event scr s ev)) = cbc (fst (obj_process scr (set_running s (Some (o, forget_sub_id (unpack (ev_key ev))))) o ev)).
Proof.
  intros Hsl Ho. rewrite (process_event_phases scr s ev sl o Hsl Ho). cbv zeta.
  destruct (obj_process scr _ o ev) as [s2 ret]. cbn [fst]. destruct (halted s2); [reflexivity|].
  assert (A : cbc (snd (post_phase s2 o (forget_sub_id (unpack (ev_key ev))) ret)) = cbc s2)
    by (unfold post_phase; destruct ret as [r|]; [rewrite cbc_apply_post|]; reflexivity).
  destruct (post_phase s2 o _ ret) as [ok s5]. cbn [snd] in A.
  destruct (halted s5); [exact A|]. cbn [fst]. rewrite cbc_end_processing.
  destruct (slot_vacant_for s5 _); [rewrite cbc_disp_unregister|]; exact A.
Qed.

(* THE ATTRIBUTION STEP: if the callback counter of o' changed while an event was processed, the event's token resolved
   (generation-checked) to o' when its processing began *)
Theorem process_event_attributed scr s ev o' :
  cbc (fst (process_event scr s ev)) o' <> cbc s o' -> lc_lookup s (forget_sub_id (unpack (ev_key ev))) = Some o'.
Proof.
  unfold lc_lookup. intros H. destruct (slot_get (slots s) _) as [sl|] eqn:Esl.
  2:{ exfalso. apply H. unfold process_event. rewrite Esl. reflexivity. }
  destruct (s_obj sl) as [o|] eqn:Eo.
  2:{ exfalso. apply H. unfold process_event. rewrite Esl, Eo. reflexivity. }
  destruct (N.eq_dec o' o) as [->|Hne]; [reflexivity|]. exfalso. apply H.
  rewrite (process_event_keeps_count_of_obj_process scr s ev sl o Esl Eo).
  exact (cbc_obj_process_other scr _ o ev o' (is_running_set_running s o _) Hne).
Qed.

Lemma cbc_run_idles scr l : forall s, cbc (run_idles scr s l) = cbc s.
Proof.
  induction l as [|i l IH]; intros s; cbn [run_idles]; [reflexivity|].
  destruct (halted s); [reflexivity|]. destruct (idle_cancelled s i); [apply IH|].
  match goal with |- context [exec_actions ?x ?a] => set (s1 := x); set (acts := a) end.
  pose proof (cbc_exec_actions acts s1) as E. change (cbc s1) with (cbc s) in E.
  destruct (halted (exec_actions s1 acts)); [exact E|]. rewrite IH. exact E.
Qed.
