(* C05, wheel level: the expiry loop partitions the wheel - popped ++ remaining is a permutation of what was there: no arming is
   popped twice, none is lost, none invented *)
From Coq Require Import Permutation.
From CV Require Import Base Env.
Import ListNotations.
Open Scope N_scope.

(* the heap top is the FIRST entry of minimal deadline: everything before it is strictly later *)
Lemma wh_min_split l : forall m, wh_min l = Some m ->
  exists l1 l2, l = l1 ++ m :: l2 /\ Forall (fun e => (w_dl m < w_dl e)%Z) l1 /\ Forall (fun e => (w_dl m <= w_dl e)%Z) l2.
Proof.
  induction l as [|e t IH]; intros m H; cbn in H; [discriminate|].
  destruct (wh_min t) as [m0|] eqn:Em.
  - destruct (IH m0 eq_refl) as (l1 & l2 & Et & F1 & F2). destruct (Z.leb_spec (w_dl e) (w_dl m0)) as [L|L]; injection H as <-.
    + exists [], t. split; [reflexivity|]. split; [constructor|]. rewrite Et. apply Forall_app. split.
      * eapply Forall_impl; [|exact F1]. cbn. intros a Ha. lia.
      * constructor; [exact L|]. eapply Forall_impl; [|exact F2]. cbn. intros a Ha. lia.
    + exists (e :: l1), l2. split; [rewrite Et; reflexivity|]. split; [constructor; [exact L|exact F1]|exact F2].
  - injection H as <-. destruct t as [|x t']; [|cbn in Em; destruct (wh_min t'); [destruct (w_dl x <=? w_dl w)%Z|]; discriminate].
    exists [], []. repeat split; constructor.
Qed.
Lemma wh_remove_first_split l1 : forall m l2, Forall (fun e => (w_dl m < w_dl e)%Z) l1 ->
  wh_remove_first (l1 ++ m :: l2) (w_ctr m) (w_dl m) = l1 ++ l2.
Proof.
  induction l1 as [|e t IH]; intros m l2 F; cbn.
  - rewrite N.eqb_refl, Z.eqb_refl. reflexivity.
  - inversion F as [|? ? He Ft]; subst. destruct (Z.eqb_spec (w_dl e) (w_dl m)) as [E|_]; [lia|]. rewrite andb_false_r. f_equal. apply IH. exact Ft.
Qed.
Lemma wh_pop_perm l m : wh_min l = Some m -> Permutation l (m :: wh_remove_first l (w_ctr m) (w_dl m)).
Proof.
  intros H. destruct (wh_min_split l m H) as (l1 & l2 & -> & F1 & _). rewrite wh_remove_first_split by exact F1.
  symmetry. apply Permutation_middle.
Qed.
Theorem wh_expire_perm fuel : forall l now ex rest, wh_expire fuel l now = (ex, rest) -> Permutation l (ex ++ rest).
Proof.
  induction fuel as [|f IH]; intros l now ex rest H; cbn in H; [injection H as <- <-; apply Permutation_refl|].
  destruct (wh_min l) as [m|] eqn:Em; [|injection H as <- <-; apply Permutation_refl].
  destruct (w_dl m <=? now)%Z; [|injection H as <- <-; apply Permutation_refl].
  destruct (wh_expire f _ now) as [ex' rest'] eqn:E. injection H as <- <-.
  eapply Permutation_trans; [apply wh_pop_perm; exact Em|]. cbn. apply perm_skip. apply IH with (now := now). exact E.
Qed.
Lemma NoDup_app_parts {A} (l1 l2 : list A) : NoDup (l1 ++ l2) -> NoDup l1 /\ NoDup l2 /\ forall x, In x l1 -> ~ In x l2.
Proof.
  induction l1 as [|a t IH]; cbn; intros H; [split; [constructor|split; [exact H|intros x []]]|].
  inversion H as [|? ? Hn Ht]; subst. destruct (IH Ht) as (A1 & A2 & A3). split; [constructor; [intros Hi; apply Hn; apply in_or_app; left; exact Hi|exact A1]|].
  split; [exact A2|]. intros x [->|Hx]; [intros Hi; apply Hn; apply in_or_app; right; exact Hi|apply A3; exact Hx].
Qed.
(* so: with pairwise distinct arming counters in the wheel, the counters popped and the counters left are disjoint and each popped
   counter is popped once *)
Corollary wh_expire_once fuel l now ex rest : wh_expire fuel l now = (ex, rest) -> NoDup (map w_ctr l) ->
  NoDup (map w_ctr ex) /\ NoDup (map w_ctr rest) /\ forall c, In c (map w_ctr ex) -> ~ In c (map w_ctr rest).
Proof.
  intros H Nd. pose proof (wh_expire_perm fuel l now ex rest H) as P.
  assert (Nd2 : NoDup (map w_ctr (ex ++ rest))) by (eapply Permutation_NoDup; [apply Permutation_map; exact P|exact Nd]).
  rewrite map_app in Nd2. apply NoDup_app_parts. exact Nd2.
Qed.
